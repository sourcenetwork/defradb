(* The push-log handler (net/server.go: processPushlog). A request names a head by its identifier and carries a
   block. The handler verifies and files the block it carries and then asks for the merge of the head it NAMES, which
   the merge reads from the block store. The block store may hold blocks that were refused before (a child block is
   filed by the block service when it is fetched, before its signature is looked at). The identifier of a block is a
   function of its content ([cid_of], a Section variable: content addressing is assumed, not modelled).
   With the check "the identifier named is the identifier of the block carried" the merged block is the verified one;
   without it (the pinned handler) a request can make the receiver merge a block that was refused. *)
From Coq Require Import List Arith Bool.
From Verif Require Import Sign.
Import ListNotations.

Section PushLog.
  Variable ktype : nat -> nat.
  Variable cid_of : block -> nat.
  Variable D : Type.
  Variable merge : D -> list nat -> nat -> block -> D * list nat.

  Fixpoint find_block (c : nat) (l : list (nat * block)) : option block :=
    match l with [] => None | (c', b) :: r => if Nat.eqb c' c then Some b else find_block c r end.

  (* what the handler hands to the merge: Some (identifier, block read from the store), or None when it refuses *)
  Definition handle (check : bool) (st : sigstore) (s : rstate D) (named : nat) (b : block) : option (nat * option block) :=
    match verify_self ktype st b with
    | Some false => None
    | _ => if check && negb (Nat.eqb named (cid_of b)) then None
           else Some (named, find_block named ((cid_of b, b) :: r_blocks s))
    end.

  Definition apply (s : rstate D) (b : block) (h : option (nat * option block)) : rstate D :=
    match h with
    | Some (c, Some hb) => let '(d, hs) := merge (r_docs s) (r_heads s) c hb in
                           {| r_blocks := (cid_of b, b) :: r_blocks s; r_docs := d; r_heads := hs |}
    | Some (_, None) => {| r_blocks := (cid_of b, b) :: r_blocks s; r_docs := r_docs s; r_heads := r_heads s |}
    | None => s
    end.

  (* with the check: whatever the store holds, the block handed to the merge is the block that was carried and
     verified; a request naming anything else is refused and changes nothing *)
  Theorem checked_handler_merges_the_verified_block st s named b :
    match handle true st s named b with
    | Some (c, hb) => c = cid_of b /\ hb = Some b /\ verify_self ktype st b <> Some false
    | None => apply s b None = s
    end.
  Proof.
    unfold handle. cbn [andb find_block]. destruct (Nat.eqb_spec named (cid_of b)) as [->|Hne]; cbn [negb].
    - rewrite Nat.eqb_refl. destruct (verify_self ktype st b) as [[|]|]; repeat split; discriminate.
    - destruct (verify_self ktype st b) as [[|]|]; reflexivity.
  Qed.

  Corollary refused_block_never_merged st s named b f :
    verify_self ktype st f = Some false ->
    forall c, handle true st s named b <> Some (c, Some f).
  Proof.
    intros Hf c H. pose proof (checked_handler_merges_the_verified_block st s named b) as G. rewrite H in G.
    destruct G as (_ & [= ->] & Hv). contradiction.
  Qed.

  (* without the check: a store that holds a refused block f and a request (identifier of f, some verifiable block)
     make the handler hand f to the merge *)
  Theorem unchecked_handler_refuted st s b f :
    verify_self ktype st f = Some false -> verify_self ktype st b <> Some false ->
    cid_of f <> cid_of b -> find_block (cid_of f) (r_blocks s) = Some f ->
    handle false st s (cid_of f) b = Some (cid_of f, Some f).
  Proof.
    intros Hf Hb Hne Hs. unfold handle. cbn [andb find_block]. rewrite Hs.
    destruct (Nat.eqb_spec (cid_of b) (cid_of f)); [congruence|]. destruct (verify_self ktype st b) as [[|]|]; congruence.
  Qed.
End PushLog.
