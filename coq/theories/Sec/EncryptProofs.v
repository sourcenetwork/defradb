From Coq Require Import List Arith.
From Verif Require Import Encrypt.
Import ListNotations.

Section Proofs.
  Variable V : Type.

  Lemma determine_comp_head f heads comp :
    determine None f heads [determine_comp None comp] = determine None f heads comp.
  Proof. unfold determine, determine_comp. now destruct heads, (first_enc comp). Qed.

  Lemma first_enc_app_some l k l' : first_enc l = Some k -> first_enc (l ++ l') = Some k.
  Proof. induction l as [|[x|] l IH]; cbn [first_enc app]; auto; discriminate. Qed.

  (* the block that becomes the head of field f when a commit gives every field g it writes the link [e g] *)
  Lemma find_written (e : nat -> option keyid) (ws : list (nat * V)) f :
    match find (fun b => b_field b =? f) (map (fun w => mk_block (fst w) (snd w) (e (fst w))) ws) with
    | Some b => b_enc b = e f
    | None => ~ In f (map fst ws)
    end.
  Proof.
    induction ws as [|w ws IH]; cbn [map find In mk_block b_field]; [auto|].
    destruct (Nat.eqb_spec (fst w) f) as [<-|N]; [reflexivity|]. destruct (find _ _); [exact IH|]. now intros [E|E].
  Qed.

  Lemma write_fheads req (ws : list (nat * V)) s f :
    fheads (fst (write req ws s)) f = [determine req f (fheads s f) (cheads s)] \/
    ~ In f (map fst ws) /\ fheads (fst (write req ws s)) f = fheads s f.
  Proof.
    pose proof (find_written (fun g => determine req g (fheads s g) (cheads s)) ws f) as H.
    cbn [write fst fheads]. cbv beta in H. destruct (find _ _); [left; now rewrite H|auto].
  Qed.

  Lemma write_blocks req (ws : list (nat * V)) s f k : determine req f (fheads s f) (cheads s) = Some k ->
    Forall (fun b => b_field b = f -> is_cipher b = true /\ b_enc b = Some k) (snd (write req ws s)).
  Proof.
    intros Hk. apply Forall_map, Forall_forall. intros w _ Hf. cbn [mk_block b_field] in Hf. subst f.
    now rewrite Hk.
  Qed.

  (* The link the next block a key holder writes for field f will carry.  Once it is a key it stays that key,
     whoever writes: a key holder's block inherits it and becomes the only head; a key-less peer's block is put
     beside the heads, and all heads are scanned for the key to inherit. *)
  Definition next_enc (s : dstate) (f : nat) : option keyid := determine None f (fheads s f) (cheads s).

  Lemma next_enc_write (ws : list (nat * V)) s f k :
    next_enc s f = Some k -> next_enc (fst (write None ws s)) f = Some k.
  Proof.
    unfold next_enc. intros Hk. destruct (write_fheads None ws s f) as [->|[_ ->]]; [now rewrite Hk|].
    cbn [write fst cheads]. now rewrite determine_comp_head.
  Qed.

  Lemma next_enc_keyless (ws : list (nat * V)) s f k :
    next_enc s f = Some k -> next_enc (fst (write_keyless ws s)) f = Some k.
  Proof.
    pose proof (find_written (fun g => determine None g [] (cheads s)) ws f) as H. cbv beta in H.
    unfold next_enc. cbn [write_keyless fst fheads cheads]. rewrite determine_comp_head. intros Hk.
    destruct (find _ _); [rewrite H|exact Hk]. destruct (fheads s f) as [|h hs]; [cbn [app]; now rewrite Hk|].
    now apply (first_enc_app_some (h :: hs)).
  Qed.

  Lemma updates_mixed_link f k us : forall s, next_enc s f = Some k ->
    Forall (fun b => b_field b = f -> is_cipher b = true /\ b_enc b = Some k) (updates_mixed (V:=V) us s).
  Proof.
    induction us as [|[[|] ws] us IH]; intros s Hk.
    - constructor.
    - change (updates_mixed ((true, ws) :: us) s)
        with (snd (write None ws s) ++ updates_mixed us (fst (write None ws s))).
      apply Forall_app. split; [now apply write_blocks|now apply IH, next_enc_write].
    - now apply IH, (next_enc_keyless ws).
  Qed.

  Lemma history_mixed_link c create us f k :
    determine (Some c) f [] [] = Some k -> next_enc (fst (write (V:=V) (Some c) create dinit)) f = Some k ->
    Forall (fun b => b_field b = f -> is_cipher b = true /\ b_enc b = Some k) (history_mixed c create us).
  Proof. intros Hc Hk. apply Forall_app. split; [now apply write_blocks|now apply updates_mixed_link]. Qed.

  Lemma updates_as_mixed us : forall s, updates (V:=V) us s = updates_mixed (map (pair true) us) s.
  Proof.
    induction us as [|ws us IH]; intros s; cbn [updates updates_mixed map]; [reflexivity|].
    destruct (write None ws s). now rewrite IH.
  Qed.

  Lemma history_as_mixed c create us : history (V:=V) c create us = history_mixed c create (map (pair true) us).
  Proof. unfold history, history_mixed. destruct (write _ _ _). now rewrite updates_as_mixed. Qed.

  Lemma Forall_per_field (P : blockrec V -> Prop) l :
    (forall f, Forall (fun b => b_field b = f -> P b) l) -> Forall P l.
  Proof.
    intros H. apply Forall_forall. intros b Hb. exact (proj1 (Forall_forall _ _) (H (b_field b)) b Hb eq_refl).
  Qed.

  (* every field block ever written for a document created with document-level encryption carries ciphertext under
     the document key: the creating write and every later update, including fields written for the first time
     (the creating write leaves the document key as the link of every field: an unwritten one finds it on the
     composite head) *)
  Theorem doc_level_all_cipher : forall c create us, doc_enc c = true ->
    Forall (fun b => is_cipher b = true /\ b_enc b = Some KDoc) (history (V:=V) c create us).
  Proof.
    intros c create us Hd. rewrite history_as_mixed. apply Forall_per_field. intros f. apply history_mixed_link.
    - unfold determine. now rewrite Hd.
    - unfold next_enc. destruct (write_fheads (Some c) create dinit f) as [->|[_ ->]]; cbn; now rewrite Hd.
  Qed.

  (* field-level encryption: a listed field that was written at creation stays encrypted, also with writes of
     key-less peers interleaved (their plaintext blocks become additional heads) *)
  Theorem listed_field_stays_cipher_mixed : forall c create us f,
    doc_enc c = false -> memb f (enc_fields c) = true -> In f (map fst create) ->
    Forall (fun b => b_field b = f -> is_cipher b = true) (history_mixed (V:=V) c create us).
  Proof.
    intros c create us f Hd Hl Hin.
    assert (Hc : determine (Some c) f [] [] = Some (KField f)) by (unfold determine; now rewrite Hd, Hl).
    eapply Forall_impl; [|apply (history_mixed_link c create us f (KField f) Hc)].
    - intros b H Hf. now apply H.
    - unfold next_enc. destruct (write_fheads (Some c) create dinit f) as [->|[[] _]]; [|exact Hin].
      cbn [dinit fheads cheads]. now rewrite Hc.
  Qed.

  Theorem listed_field_written_at_creation_stays_cipher : forall c create us f,
    doc_enc c = false -> memb f (enc_fields c) = true -> In f (map fst create) ->
    Forall (fun b => b_field b = f -> is_cipher b = true) (history (V:=V) c create us).
  Proof. intros. rewrite history_as_mixed. now apply listed_field_stays_cipher_mixed. Qed.
End Proofs.

(* The request is carried by the create call only and nothing records it for fields without a block: a listed field
   that is first written by a later update is stored in clear. *)
Lemma listed_field_absent_at_creation_refuted :
  let c := {| doc_enc := false; enc_fields := [0; 1] |} in
  map is_cipher (history c [(0, tt)] [[(1, tt)]]) = [true; false].
Proof. vm_compute. reflexivity. Qed.

(* the pinned code did not consult the composite heads: under document-level encryption a field first written by an
   update was stored in clear (F14, repaired) *)
Definition determine_legacy (req : option conf) (f : nat) (heads : list (option keyid)) : option keyid :=
  match req with
  | Some c => if doc_enc c then Some KDoc else if memb f (enc_fields c) then Some (KField f) else first_enc heads
  | None => first_enc heads
  end.
Lemma legacy_doc_level_refuted : determine_legacy None 1 [] = None /\ determine None 1 [] [Some KDoc] = Some KDoc.
Proof. vm_compute. auto. Qed.
