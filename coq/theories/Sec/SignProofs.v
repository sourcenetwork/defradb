From Coq Require Import List Arith Bool.
From Verif Require Import Sign.
Import ListNotations.

Lemma ln_eqb_eq a : forall b, ln_eqb a b = true <-> a = b.
Proof.
  induction a as [|x a IH]; intros [|y b]; cbn [ln_eqb]; split; try discriminate; try reflexivity.
  - intros [H1 H2]%andb_prop. apply Nat.eqb_eq in H1. apply IH in H2. congruence.
  - intros [= -> ->]. rewrite Nat.eqb_refl. now apply IH.
Qed.
Lemma lp_eqb_eq a : forall b, lp_eqb a b = true <-> a = b.
Proof.
  induction a as [|[x y] a IH]; intros [|[x' y'] b]; cbn [lp_eqb]; split; try discriminate; try reflexivity.
  - intros [[H0 H1]%andb_prop H2]%andb_prop. apply Nat.eqb_eq in H0, H1. apply IH in H2. congruence.
  - intros [= -> -> ->]. rewrite !Nat.eqb_refl. now apply IH.
Qed.
Lemma ublock_eqb_eq a b : ublock_eqb a b = true <-> a = b.
Proof.
  unfold ublock_eqb. destruct a as [d h l], b as [d' h' l']; cbn [u_delta u_heads u_links]. split.
  - intros [[H1 H2]%andb_prop H3]%andb_prop. apply Nat.eqb_eq in H1. apply ln_eqb_eq in H2. apply lp_eqb_eq in H3. congruence.
  - intros [= -> -> ->]. rewrite Nat.eqb_refl, (proj2 (ln_eqb_eq _ _) eq_refl). now apply lp_eqb_eq.
Qed.

(* the ideal scheme: a key accepts for a message exactly the signature made with that key for that message *)
Lemma verify_spec pk m s : verify pk m s = true <-> s = sign pk m.
Proof.
  unfold verify, sign. destruct s as [k m']; cbn [fst snd]. split.
  - intros [H1 H2]%andb_prop. apply Nat.eqb_eq in H1. apply ublock_eqb_eq in H2. congruence.
  - intros [= -> ->]. rewrite Nat.eqb_refl. now apply ublock_eqb_eq.
Qed.
Lemma verify_neq pk m s : s <> sign pk m -> verify pk m s = false.
Proof. intros H. apply not_true_iff_false. intros E%verify_spec. contradiction. Qed.

Section Proofs.
  Variable ktype : nat -> nat.

  Definition with_sig (st : sigstore) (l : nat) (sb : sigblock) : sigstore := fun x => if Nat.eqb x l then Some sb else st x.

  Lemma verify_with_key_sig st l sb body pk :
    verify_with_key (with_sig st l sb) {| b_body := body; b_sig := Some l |} pk =
    Some (Nat.eqb (s_identity sb) pk && verify pk body (s_value sb)).
  Proof. unfold verify_with_key, with_sig. cbn [b_sig b_body]. now rewrite Nat.eqb_refl. Qed.

  Lemma verify_self_sig st l sb body :
    verify_self ktype (with_sig st l sb) {| b_body := body; b_sig := Some l |} =
    Some (Nat.eqb (s_type sb) (ktype (s_identity sb)) && verify (s_identity sb) body (s_value sb)).
  Proof. unfold verify_self, with_sig. cbn [b_sig b_body]. now rewrite Nat.eqb_refl. Qed.

  Theorem signed_verifies : forall st k body l,
    verify_with_key (with_sig st l (sign_block ktype k body)) {| b_body := body; b_sig := Some l |} k = Some true /\
    verify_self ktype (with_sig st l (sign_block ktype k body)) {| b_body := body; b_sig := Some l |} = Some true.
  Proof.
    intros. rewrite verify_with_key_sig, verify_self_sig. cbn [sign_block s_type s_identity s_value].
    now rewrite !Nat.eqb_refl, (proj2 (verify_spec k body _) eq_refl).
  Qed.

  Theorem wrong_key_fails : forall st k k' body l, k' <> k ->
    verify_with_key (with_sig st l (sign_block ktype k body)) {| b_body := body; b_sig := Some l |} k' = Some false.
  Proof.
    intros st k k' body l Hne. rewrite verify_with_key_sig. cbn [sign_block s_identity].
    apply not_eq_sym, Nat.eqb_neq in Hne. now rewrite Hne.
  Qed.

  (* any change to delta, parents or links of the signed commit makes the verification fail, whatever key is tried and
     also on the receive path *)
  Theorem tamper_detected : forall st k body body' l pk, body' <> body ->
    verify_with_key (with_sig st l (sign_block ktype k body)) {| b_body := body'; b_sig := Some l |} pk = Some false /\
    verify_self ktype (with_sig st l (sign_block ktype k body)) {| b_body := body'; b_sig := Some l |} = Some false.
  Proof.
    intros st k body body' l pk Hne.
    assert (Hv : forall q, verify q body' (sign k body) = false).
    { intros q. apply verify_neq. unfold sign. congruence. }
    rewrite verify_with_key_sig, verify_self_sig. cbn [sign_block s_value]. now rewrite !Hv, !andb_false_r.
  Qed.

  (* a signature block whose value was produced for another message or by another key, or whose identity or type was
     changed, does not verify either *)
  Theorem signature_block_tamper_detected : forall st body l (sb : sigblock),
    (fst (s_value sb) <> s_identity sb \/ snd (s_value sb) <> body \/ s_type sb <> ktype (s_identity sb)) ->
    verify_self ktype (with_sig st l sb) {| b_body := body; b_sig := Some l |} = Some false.
  Proof.
    intros st body l sb H. rewrite verify_self_sig. f_equal. apply andb_false_iff.
    destruct H as [H|[H|H]].
    1, 2: right; apply verify_neq; intros E; now rewrite E in H.   (* the value is not the identity's signature of body *)
    left. now apply Nat.eqb_neq.
  Qed.

  (* a pushed commit whose attached signature does not verify is rejected and changes neither documents nor heads;
     the commit graph reachable from the heads is therefore unchanged as well (the pushed block itself is filed in
     the block store before the check - as coded - but nothing links to it) *)
  Theorem forged_not_merged : forall (D : Type) merge st (s : rstate D) c b,
    verify_self ktype st b = Some false ->
    let '(s', ok) := receive ktype D merge st s c b in
    ok = false /\ r_docs s' = r_docs s /\ r_heads s' = r_heads s /\
    (forall c', c' <> c -> In c' (map fst (r_blocks s')) <-> In c' (map fst (r_blocks s))).
  Proof.
    intros D merge st s c b H. unfold receive. rewrite H. cbn [r_docs r_heads r_blocks map fst In].
    repeat split; auto. intros [E|E]; [congruence|exact E].
  Qed.
End Proofs.
