From Coq Require Import List ZArith Bool Permutation.
From Verif Require Import ListFacts Order Evolve.
Import ListNotations.

(* schema operations never touch the data *)
Lemma schema_op_keeps_log n fs sa : log (step n (Patch fs sa)) = log n.
Proof. reflexivity. Qed.
Lemma activate_keeps_log n i : log (step n (Activate i)) = log n.
Proof. reflexivity. Qed.

Definition is_schema_op (o : op) : bool := match o with Apply _ => false | _ => true end.

Theorem schema_ops_preserve_data : forall os n, forallb is_schema_op os = true ->
  log (run n os) = log n /\ forall d f, read (log (run n os)) d f = read (log n) d f.
Proof.
  intros os n H. enough (E : log (run n os) = log n) by (split; [exact E|intros; now rewrite E]).
  revert n. induction os as [|o os IH]; intros n; [reflexivity|].
  apply andb_prop in H as [Ho Hos]. cbn [run fold_left]. etransitivity; [apply (IH Hos)|].
  destruct o; [reflexivity|reflexivity|discriminate].
Qed.

(* a field that stays in the active version reads the same before and after any sequence of patches / switches *)
Theorem view_stable_under_schema_ops : forall os n d f v, forallb is_schema_op os = true ->
  view n d f = Some v -> memb f (active_fields (run n os)) = true -> view (run n os) d f = Some v.
Proof.
  intros os n d f v H Hv Hm. unfold view in *. rewrite Hm.
  destruct (memb f (active_fields n)); [|discriminate]. inversion Hv; subst.
  destruct (schema_ops_preserve_data os n H) as [_ E]. now rewrite E.
Qed.

(* the log only mentions known fields; a freshly added field reads null everywhere *)
Definition log_known (n : node) : Prop := forall w, In w (log n) -> memb (w_fld w) (newest n) = true.

Lemma memb_app f a b : memb f (a ++ b) = memb f a || memb f b.
Proof. unfold memb. now rewrite existsb_app. Qed.

Lemma newest_patch n fs sa : newest (step n (Patch fs sa)) = newest n ++ (active_fields n ++ fs).
Proof. unfold newest. cbn [step versions]. rewrite concat_app. cbn [concat]. now rewrite app_nil_r. Qed.

Lemma active_sub_known n f : memb f (active_fields n) = true -> memb f (newest n) = true.
Proof.
  unfold active_fields, newest. generalize (active n). induction (versions n) as [|v vs IH]; intros i H.
  - destruct i; cbn in H; discriminate.
  - cbn [concat]. rewrite memb_app. destruct i as [|i]; cbn [nth] in H; [now rewrite H|].
    rewrite (IH i H). now rewrite orb_true_r.
Qed.

Lemma log_known_step n o : log_known n -> log_known (step n o).
Proof.
  intros H. destruct o as [fs sa|i|w].
  - intros w Hin. rewrite newest_patch, memb_app. cbn [step log] in Hin. now rewrite (H w Hin).
  - intros w Hin. apply (H w Hin).
  - cbn [step]. destruct (memb (w_fld w) (active_fields n)) eqn:E; [|exact H].
    intros w' Hin. cbn [log] in Hin. apply in_app_or in Hin.
    destruct Hin as [Hin|[<-|[]]]; [apply (H w' Hin)|now apply active_sub_known].
Qed.

Lemma log_known_run os : forall n, log_known n -> log_known (run n os).
Proof. apply fold_left_inv. intros n o. apply log_known_step. Qed.

Lemma hits_fld d f w : hits d f w = true -> w_fld w = f.
Proof. intros H. apply andb_prop in H. apply Nat.eqb_eq, H. Qed.

Lemma read_no_hit ws d f : (forall w, In w ws -> hits d f w = false) -> read ws d f = rnull.
Proof.
  unfold read. generalize rnull. induction ws as [|w ws IH]; intros a H; cbn [fold_left]; [reflexivity|].
  rewrite (H w (or_introl eq_refl)). apply IH. intros w' Hin. apply H. right. exact Hin.
Qed.

Lemma unknown_field_reads_null n d f : log_known n -> memb f (newest n) = false -> read (log n) d f = rnull.
Proof.
  intros Hk Hnew. apply read_no_hit. intros w Hw.
  destruct (hits d f w) eqn:E; [|reflexivity]. apply hits_fld in E. subst f. rewrite (Hk w Hw) in Hnew. discriminate.
Qed.

Theorem added_field_reads_null : forall n fs sa d f, log_known n ->
  memb f (newest n) = false -> In f fs -> read (log (step n (Patch fs sa))) d f = rnull.
Proof. intros n fs sa d f Hk Hnew _. exact (unknown_field_reads_null n d f Hk Hnew). Qed.

(* nodes at different versions agree on every field both know *)
Lemma read_perm ws1 ws2 d f : Permutation ws1 ws2 -> read ws1 d f = read ws2 d f.
Proof.
  intros H. apply (fold_left_perm eq _ (@eq_refl _) (@eq_trans _)); [| |exact H|reflexivity].
  - intros a b w ->. reflexivity.
  - intros a x y. destruct (hits d f x), (hits d f y); auto using rmax_comm3.
Qed.

Lemma read_filter (p : write -> bool) ws d f : (forall w, hits d f w = true -> p w = true) ->
  read (filter p ws) d f = read ws d f.
Proof.
  intros H. unfold read. generalize rnull. induction ws as [|w ws IH]; intros a; cbn [filter fold_left]; [reflexivity|].
  destruct (p w) eqn:E; cbn [fold_left]; [apply IH|].
  destruct (hits d f w) eqn:Eh; [rewrite (H w Eh) in E; discriminate|apply IH].
Qed.

Lemma apply_fields n w : active_fields (step n (Apply w)) = active_fields n.
Proof. cbn [step]. now destruct (memb _ _). Qed.

Lemma apply_all_log ws : forall n,
  log (run n (map Apply ws)) = log n ++ filter (fun w => memb (w_fld w) (active_fields n)) ws.
Proof.
  induction ws as [|w ws IH]; intros n; cbn [map run fold_left filter]; [now rewrite app_nil_r|].
  fold (run (step n (Apply w)) (map Apply ws)). rewrite IH, apply_fields. cbn [step].
  destruct (memb (w_fld w) (active_fields n)); cbn [log]; [now rewrite <- app_assoc|reflexivity].
Qed.

Theorem common_fields_agree : forall n1 n2 ws1 ws2 d f,
  log n1 = [] -> log n2 = [] -> Permutation ws1 ws2 ->
  memb f (active_fields n1) = true -> memb f (active_fields n2) = true ->
  read (log (run n1 (map Apply ws1))) d f = read (log (run n2 (map Apply ws2))) d f.
Proof.
  intros n1 n2 ws1 ws2 d f L1 L2 Hp K1 K2.
  rewrite !apply_all_log, L1, L2. cbn [app].
  rewrite !read_filter; [now apply read_perm| |]; intros w Hh; now rewrite (hits_fld _ _ _ Hh).
Qed.

(* The hypothesis "f is in the ACTIVE version while the writes arrive" cannot be weakened to "some local version knows
   f": a node that knows field 2 through an inactive version ignores a write to it, and still reads null after
   switching to that version, while the writer reads the value. *)
Lemma inactive_field_write_lost :
  let n := {| versions := [[0; 1]; [0; 1; 2]]; active := 0; log := [] |} in
  let w := {| w_doc := 0; w_fld := 2; w_val := (1, [7%Z]) |} in
  let writer := {| versions := [[0; 1]; [0; 1; 2]]; active := 1; log := [] |} in
  view (run n [Apply w; Activate 1]) 0 2 = Some rnull /\ view (run writer [Apply w]) 0 2 = Some (1, [7%Z]).
Proof. vm_compute. auto. Qed.
