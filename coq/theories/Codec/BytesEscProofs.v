(* Order preservation of the escaped byte-string key codec (strings, blobs and the string part of composite keys):
   for byte strings a, b the encodings compare like a and b themselves; the descending encoding reverses the order.
   The constants (escape 0x00, escaped 0x00 -> 0xFF, terminator 0x01) come from the generated file, so a change of
   them in internal/encoding breaks these proofs. *)
From Coq Require Import List ZArith Lia.
From Verif Require Import GoSem GenEnc Bytes BytesEsc.
Import ListNotations.
Open Scope Z_scope.

Definition body_t (d : list Z) : list Z := esc_body d ++ [G_escape; G_escapedTerm].

Lemma consts : G_escape = 0 /\ G_escapedTerm = 1 /\ G_escaped00 = 255.
Proof. repeat split; reflexivity. Qed.

Definition esc1 (x : Z) : list Z := if x =? 0 then [0; 255] else [x].

Lemma body_cons x a : body_t (x :: a) = esc1 x ++ body_t a.
Proof. unfold body_t, esc1. cbn [esc_body]. change G_escape with 0. now destruct (x =? 0). Qed.

(* 0x00 is the least byte and the escape pair 00 FF sorts above the terminator 00 01: escaped bytes compare like
   the bytes, and a string that ends sorts below one that goes on *)
Lemma esc1_cmp x y r s : is_byte x -> is_byte y ->
  bcmp (esc1 x ++ r) (esc1 y ++ s) = match x ?= y with Eq => bcmp r s | c => c end.
Proof.
  unfold is_byte, esc1. intros Hx Hy.
  destruct (Z.eqb_spec x 0) as [->|Hx0], (Z.eqb_spec y 0) as [->|Hy0]; cbn [app bcmp]; try reflexivity.
  - destruct (Z.compare_spec 0 y); [lia|reflexivity|lia].
  - destruct (Z.compare_spec x 0); [lia|lia|reflexivity].
Qed.

Lemma term_lt y r s : is_byte y -> bcmp ([0; 1] ++ r) (esc1 y ++ s) = Lt.
Proof.
  unfold is_byte, esc1. intros Hy. destruct (Z.eqb_spec y 0) as [->|Hy0]; cbn [app bcmp]; [reflexivity|].
  destruct (Z.compare_spec 0 y); [lia|reflexivity|lia].
Qed.

Lemma body_sd a : forall b r s, bytes a -> bytes b ->
  bcmp (body_t a ++ r) (body_t b ++ s) = match bcmp a b with Eq => bcmp r s | c => c end.
Proof.
  induction a as [|x a IH]; intros [|y b] r s Ha Hb; rewrite ?body_cons, <- ?app_assoc.
  - reflexivity.
  - apply term_lt. now inversion Hb.
  - rewrite bcmp_antisym. change (body_t []) with [0; 1]. rewrite term_lt; [reflexivity | now inversion Ha].
  - inversion Ha; inversion Hb; subst. rewrite esc1_cmp by assumption. cbn [bcmp]. destruct (x ?= y); auto.
Qed.

Theorem enc_bytes_a_sd : sd_order bcmp enc_bytes_a bytes.
Proof.
  intros a b r s Ha Hb. unfold enc_bytes_a. cbn [app bcmp]. rewrite Z.compare_refl.
  now apply (body_sd a b r s).
Qed.

Lemma body_order a b : bytes a -> bytes b -> bcmp (body_t a) (body_t b) = bcmp a b.
Proof.
  intros Ha Hb. pose proof (body_sd a b [] [] Ha Hb) as H. rewrite !app_nil_r in H. rewrite H.
  destruct (bcmp a b); reflexivity.
Qed.

Theorem enc_bytes_a_order : forall a b, bytes a -> bytes b -> bcmp (enc_bytes_a a) (enc_bytes_a b) = bcmp a b.
Proof. intros a b Ha Hb. unfold enc_bytes_a. cbn [bcmp]. rewrite Z.compare_refl. now apply body_order. Qed.

(* no encoding is a prefix of another one: were [body_t a] to continue [body_t b], comparing the two would say Eq *)
Lemma body_prefix_free a : forall b p, bytes a -> bytes b -> body_t a = body_t b ++ p -> a = b.
Proof.
  intros b p Ha Hb H. apply bcmp_eq. pose proof (body_sd a b [] p Ha Hb) as Hc.
  rewrite app_nil_r, H, bcmp_refl in Hc. destruct (bcmp a b); congruence.
Qed.

Lemma body_bytes a : bytes a -> bytes (body_t a).
Proof.
  destruct consts as [Ce [Ct C0]]. unfold body_t. rewrite Ce, Ct.
  induction 1 as [|x a Hx Ha IH]; cbn [esc_body app].
  - repeat constructor; unfold is_byte; lia.
  - rewrite Ce, C0. destruct (x =? 0); repeat (constructor; try assumption); unfold is_byte; lia.
Qed.

Lemma bcmp_compl a : forall b, (forall p, a = b ++ p -> p = []) -> (forall p, b = a ++ p -> p = []) ->
  bcmp (map not_u8 a) (map not_u8 b) = CompOpp (bcmp a b).
Proof.
  induction a as [|x a IH]; intros [|y b] H1 H2; cbn [map bcmp].
  - reflexivity.
  - discriminate (H2 (y :: b) eq_refl).
  - discriminate (H1 (x :: a) eq_refl).
  - unfold not_u8. destruct (Z.compare_spec x y) as [E|E|E].
    + subst y. rewrite Z.compare_refl. apply IH; intros p Hp; [apply (H1 p) | apply (H2 p)]; cbn; now rewrite Hp.
    + replace (255 - x ?= 255 - y) with Gt by (symmetry; apply Z.compare_gt_iff; lia). reflexivity.
    + replace (255 - x ?= 255 - y) with Lt by (symmetry; apply Z.compare_lt_iff; lia). reflexivity.
Qed.

Lemma enc_bytes_d_reverses a b : bytes a -> bytes b -> bcmp (enc_bytes_d a) (enc_bytes_d b) = CompOpp (bcmp a b).
Proof.
  intros Ha Hb. unfold enc_bytes_d. cbn [bcmp]. rewrite Z.compare_refl.
  change (esc_body a ++ [G_escape; G_escapedTerm]) with (body_t a).
  change (esc_body b ++ [G_escape; G_escapedTerm]) with (body_t b).
  (* a body that continues another one belongs to the same string, so nothing was added *)
  assert (P : forall a b p, bytes a -> bytes b -> body_t a = body_t b ++ p -> p = []).
  { intros a' b' p Ha' Hb' Hp. rewrite (body_prefix_free a' b' p Ha' Hb' Hp), <- app_nil_r in Hp at 1.
    symmetry. exact (app_inv_head _ _ _ Hp). }
  rewrite bcmp_compl; [now rewrite body_order | intros p; now apply P ..].
Qed.

Theorem enc_bytes_d_order : forall a b, bytes a -> bytes b -> a <> b ->
  bcmp (enc_bytes_d a) (enc_bytes_d b) = CompOpp (bcmp a b).
Proof. intros a b Ha Hb _. now apply enc_bytes_d_reverses. Qed.
