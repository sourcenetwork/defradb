(* Byte strings as [list Z] (each element in [0,256)), lexicographic comparison as
   Go's bytes.Compare, big-endian values. *)
From Coq Require Import List ZArith Lia.
Import ListNotations.
Open Scope Z_scope.

Definition is_byte (x : Z) : Prop := 0 <= x < 256.
Definition bytes (l : list Z) : Prop := Forall is_byte l.

Fixpoint bcmp (a b : list Z) : comparison :=
  match a, b with
  | [], [] => Eq
  | [], _ => Lt
  | _, [] => Gt
  | x :: a', y :: b' => match x ?= y with Eq => bcmp a' b' | c => c end
  end.

Lemma bcmp_refl a : bcmp a a = Eq.
Proof. induction a as [|x a IH]; cbn [bcmp]; auto. rewrite Z.compare_refl; auto. Qed.

Lemma bcmp_antisym a b : bcmp b a = CompOpp (bcmp a b).
Proof.
  revert b; induction a as [|x a IH]; intros [|y b]; cbn [bcmp]; auto.
  rewrite (Z.compare_antisym x y). destruct (x ?= y); cbn; auto.
Qed.

Lemma bcmp_gt_lt a b : bcmp a b = Gt <-> bcmp b a = Lt.
Proof. rewrite (bcmp_antisym a b). destruct (bcmp a b); cbn; split; congruence. Qed.

Lemma bcmp_eq a b : bcmp a b = Eq -> a = b.
Proof.
  revert b; induction a as [|x a IH]; intros [|y b]; cbn [bcmp]; try discriminate; auto.
  destruct (x ?= y) eqn:E; try discriminate. apply Z.compare_eq in E. intros H; f_equal; auto.
Qed.

Lemma bcmp_lt_trans a b c : bcmp a b = Lt -> bcmp b c = Lt -> bcmp a c = Lt.
Proof.
  revert b c; induction a as [|x a IH]; intros [|y b] [|z c]; cbn [bcmp]; try discriminate; auto.
  destruct (Z.compare_spec x y) as [->|Hxy|Hxy]; try discriminate.
  - destruct (y ?= z); try discriminate; auto. apply IH.
  - intros _. destruct (Z.compare_spec y z) as [->|Hyz|Hyz]; try discriminate; intros _;
      (replace (x ?= z) with Lt by (symmetry; apply Z.compare_lt_iff; lia)); reflexivity.
Qed.

Lemma bcmp_le_trans a b c : bcmp a b <> Gt -> bcmp b c <> Gt -> bcmp a c <> Gt.
Proof.
  intros H1 H2 H3.
  destruct (bcmp a b) eqn:E1; [apply bcmp_eq in E1; subst; contradiction | | contradiction].
  destruct (bcmp b c) eqn:E2; [apply bcmp_eq in E2; subst; congruence | | contradiction].
  rewrite (bcmp_lt_trans _ _ _ E1 E2) in H3. discriminate.
Qed.

Lemma bcmp_app_eqlen a b r s : length a = length b ->
  bcmp (a ++ r) (b ++ s) = match bcmp a b with Eq => bcmp r s | c => c end.
Proof.
  revert b; induction a as [|x a IH]; intros [|y b] [=]; cbn [app bcmp]; auto.
  destruct (x ?= y); auto.
Qed.

Lemma bcmp_app_same p a b : bcmp (p ++ a) (p ++ b) = bcmp a b.
Proof. now rewrite bcmp_app_eqlen, bcmp_refl. Qed.

Fixpoint be_bytes (n : nat) (v : Z) : list Z :=
  match n with
  | O => []
  | S n' => be_bytes n' (v / 256) ++ [v mod 256]
  end.

Fixpoint be_val (l : list Z) (acc : Z) : Z :=
  match l with [] => acc | x :: l' => be_val l' (acc * 256 + x) end.

Lemma be_val_app l1 l2 acc : be_val (l1 ++ l2) acc = be_val l2 (be_val l1 acc).
Proof. revert acc; induction l1; simpl; auto. Qed.

Lemma be_bytes_length n v : length (be_bytes n v) = n.
Proof. revert v; induction n; simpl; intros; auto. rewrite app_length, IHn; simpl; lia. Qed.

Lemma be_bytes_val n v : 0 <= v -> be_val (be_bytes n v) 0 = v mod 256 ^ Z.of_nat n.
Proof.
  revert v; induction n; intros v Hv.
  - simpl. rewrite Z.mod_1_r. reflexivity.
  - cbn [be_bytes]. rewrite be_val_app. cbn [be_val]. rewrite IHn by (apply Z.div_pos; lia).
    rewrite Nat2Z.inj_succ, Z.pow_succ_r by lia.
    rewrite Z.rem_mul_r by lia. lia.
Qed.

Lemma be_bytes_range n v : bytes (be_bytes n v).
Proof.
  revert v; induction n; intros; simpl; [constructor|].
  apply Forall_app; split; [apply IHn|]. constructor; [|constructor]. apply Z.mod_pos_bound; lia.
Qed.

Lemma be_bytes_mod n v : be_bytes n (v mod 256 ^ Z.of_nat n) = be_bytes n v.
Proof.
  revert v; induction n; intros v; [reflexivity|].
  cbn [be_bytes]. rewrite Nat2Z.inj_succ, Z.pow_succ_r by lia.
  assert (Hp : 0 < 256 ^ Z.of_nat n) by (apply Z.pow_pos_nonneg; lia).
  (* v mod (256 * P) = v mod 256 + ((v / 256) mod P) * 256: its quotient and remainder by 256 *)
  rewrite Z.rem_mul_r, (Z.mul_comm 256) by lia.
  rewrite Z.div_add, Z.div_small, Z.add_0_l, Z_mod_plus_full, Z.mod_mod, IHn by (try apply Z.mod_pos_bound; lia).
  reflexivity.
Qed.

Lemma be_val_bound l : bytes l -> forall acc, 0 <= acc ->
  acc * 256 ^ Z.of_nat (length l) <= be_val l acc < (acc + 1) * 256 ^ Z.of_nat (length l).
Proof.
  induction 1 as [|x l Hx Hl IH]; intros acc Hacc.
  - simpl. lia.
  - cbn [be_val length]. rewrite Nat2Z.inj_succ, Z.pow_succ_r by lia. unfold is_byte in Hx.
    specialize (IH (acc * 256 + x) ltac:(lia)). nia.
Qed.

Lemma be_val_lt a b : length a = length b -> bytes a -> bytes b ->
  forall x y, 0 <= x < y -> be_val a x < be_val b y.
Proof.
  intros Hlen Ha Hb x y Hxy.
  pose proof (be_val_bound a Ha x ltac:(lia)). pose proof (be_val_bound b Hb y ltac:(lia)). rewrite Hlen in *.
  assert (0 < 256 ^ Z.of_nat (length b)) by (apply Z.pow_pos_nonneg; lia). nia.
Qed.

Lemma bcmp_be a b : length a = length b -> bytes a -> bytes b ->
  forall acc, 0 <= acc -> bcmp a b = (be_val a acc ?= be_val b acc).
Proof.
  revert b; induction a as [|x a IH]; intros [|y b] Hlen Ha Hb acc Hacc; try discriminate.
  - simpl. symmetry. apply Z.compare_refl.
  - inversion Ha as [|? ? Hx Ha']; inversion Hb as [|? ? Hy Hb']; subst.
    cbn [bcmp be_val]. injection Hlen as Hlen. unfold is_byte in *.
    destruct (Z.compare_spec x y) as [->|Hlt|Hgt].
    + apply IH; auto; lia.
    + symmetry. apply Z.compare_lt_iff, be_val_lt; auto; lia.
    + symmetry. apply Z.compare_gt_iff, be_val_lt; auto; lia.
Qed.

(* self-delimiting, order-preserving encodings: [enc a] followed by anything compares like [a], and equal values
   hand the comparison on to what follows (this is what makes composite keys work) *)
Definition sd_order {A} (cmp : A -> A -> comparison) (enc : A -> list Z) (dom : A -> Prop) : Prop :=
  forall a b r s, dom a -> dom b ->
    bcmp (enc a ++ r) (enc b ++ s) = match cmp a b with Eq => bcmp r s | c => c end.

Lemma sd_order_of_key {A} (key : A -> Z) (enc : A -> list Z) (dom : A -> Prop) :
  (forall a b r s, dom a -> dom b -> key a < key b -> bcmp (enc a ++ r) (enc b ++ s) = Lt) ->
  (forall a b, dom a -> dom b -> key a = key b -> enc a = enc b) ->
  sd_order (fun a b => key a ?= key b) enc dom.
Proof.
  intros Hlt Heq a b r s Ha Hb. destruct (Z.compare_spec (key a) (key b)) as [E|L|G].
  - rewrite (Heq a b Ha Hb E). apply bcmp_app_same.
  - apply Hlt; assumption.
  - rewrite bcmp_antisym, Hlt by assumption. reflexivity.
Qed.

Lemma sd_order_of_lt (enc : Z -> list Z) (dom : Z -> Prop) :
  (forall a b r s, dom a -> dom b -> a < b -> bcmp (enc a ++ r) (enc b ++ s) = Lt) ->
  sd_order Z.compare enc dom.
Proof. intros H. apply (sd_order_of_key (fun a => a)); [exact H | intros a b _ _ ->; reflexivity]. Qed.

Lemma sd_order_of_gt (enc : Z -> list Z) (dom : Z -> Prop) :
  (forall a b r s, dom a -> dom b -> a < b -> bcmp (enc b ++ r) (enc a ++ s) = Lt) ->
  sd_order (fun a b => Z.compare b a) enc dom.
Proof.
  intros H a b r s Ha Hb. rewrite <- Z.compare_opp. revert a b r s Ha Hb. apply (sd_order_of_key Z.opp).
  - intros a b r s Ha Hb Hab. apply H; auto. lia.
  - intros a b _ _ E. f_equal. lia.
Qed.

Lemma sd_order_shape {A} cmp (enc : A -> list Z) (g : list Z -> A -> list Z) (dom : A -> Prop) :
  (forall b v, dom v -> g b v = b ++ enc v) -> sd_order cmp enc dom -> sd_order cmp (g []) dom.
Proof. intros Hs H a b r s Ha Hb. rewrite !Hs by assumption. apply H; assumption. Qed.
