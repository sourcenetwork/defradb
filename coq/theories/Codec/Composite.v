(* Composite index keys: the key of a tuple is the concatenation "/" field1 "/" field2 ...; because every field
   encoding is self-delimiting and order preserving (sd_order), byte order of the keys is the lexicographic order of
   the tuples - for integer and byte-string (string / blob) components, ascending. *)
From Coq Require Import List ZArith.
From Verif Require Import GoSem GenEnc Bytes Varint BytesEsc BytesEscProofs.
Import ListNotations.
Open Scope Z_scope.

Inductive kval := KInt (v : Z) | KStr (s : list Z).

Definition kdom (v : kval) : Prop := match v with KInt z => i64_range z | KStr s => bytes s end.
Definition kenc (v : kval) : list Z :=
  match v with KInt z => G_EncodeVarintAscending [] z | KStr s => enc_bytes_a s end.
Definition same_kind (a b : kval) : Prop :=
  match a, b with KInt _, KInt _ => True | KStr _, KStr _ => True | _, _ => False end.
Definition kcmp (a b : kval) : comparison :=
  match a, b with KInt x, KInt y => Z.compare x y | KStr x, KStr y => bcmp x y | _, _ => Eq end.

Lemma kenc_sd a b r s : same_kind a b -> kdom a -> kdom b ->
  bcmp (kenc a ++ r) (kenc b ++ s) = match kcmp a b with Eq => bcmp r s | c => c end.
Proof.
  destruct a as [x|x], b as [y|y]; cbn [same_kind kdom kenc kcmp]; try contradiction; intros _ Ha Hb.
  - now apply G_varint_asc_order.
  - now apply enc_bytes_a_sd.
Qed.

Definition slash : Z := 47.
Fixpoint key_of (t : list kval) : list Z :=
  match t with [] => [] | v :: r => slash :: kenc v ++ key_of r end.

Fixpoint lexcmp (a b : list kval) : comparison :=
  match a, b with
  | x :: a', y :: b' => match kcmp x y with Eq => lexcmp a' b' | c => c end
  | _, _ => Eq
  end.

Fixpoint same_shape (a b : list kval) : Prop :=
  match a, b with
  | [], [] => True
  | x :: a', y :: b' => same_kind x y /\ same_shape a' b'
  | _, _ => False
  end.

(* tuples over the same index (same component kinds): byte order of the keys = lexicographic order of the tuples;
   what follows the key (the document id) decides between equal tuples *)
Theorem composite_key_order : forall a b r s, same_shape a b -> Forall kdom a -> Forall kdom b ->
  bcmp (key_of a ++ r) (key_of b ++ s) = match lexcmp a b with Eq => bcmp r s | c => c end.
Proof.
  induction a as [|x a IH]; intros [|y b] r s Hs Ha Hb; cbn [same_shape] in Hs; try contradiction; cbn [key_of lexcmp app].
  - reflexivity.
  - destruct Hs as [Hk Hs]. inversion Ha as [|? ? Hx Ha']; inversion Hb as [|? ? Hy Hb']; subst.
    cbn [bcmp]. rewrite Z.compare_refl. rewrite <- !app_assoc.
    rewrite (kenc_sd x y _ _ Hk Hx Hy). destruct (kcmp x y); auto.
Qed.

(* time values: marker, seconds, nanoseconds (both varints): order = lexicographic order on (seconds, nanos) *)
Lemma encodeTime_shape b s n : i64_range s -> i64_range n ->
  G_encodeTime b s n = b ++ [G_timeMarker] ++ enc_va s ++ enc_va n.
Proof.
  intros Hs Hn. unfold G_encodeTime. cbv zeta.
  rewrite (G_varint_asc_shape _ s Hs), (G_varint_asc_shape _ n Hn). now rewrite <- !app_assoc.
Qed.

Definition time_cmp (a b : Z * Z) : comparison :=
  match Z.compare (fst a) (fst b) with Eq => Z.compare (snd a) (snd b) | c => c end.

Theorem encodeTime_order : forall s1 n1 s2 n2 r t,
  i64_range s1 -> i64_range n1 -> i64_range s2 -> i64_range n2 ->
  bcmp (G_encodeTime [] s1 n1 ++ r) (G_encodeTime [] s2 n2 ++ t)
  = match time_cmp (s1, n1) (s2, n2) with Eq => bcmp r t | c => c end.
Proof.
  intros s1 n1 s2 n2 r t H1 H2 H3 H4. rewrite !encodeTime_shape by assumption.
  cbn [app bcmp]. rewrite Z.compare_refl. rewrite <- !app_assoc.
  rewrite (enc_va_order s1 s2 _ _ H1 H3). unfold time_cmp. cbn [fst snd].
  destruct (s1 ?= s2); auto. apply enc_va_order; assumption.
Qed.

(* booleans and null: one marker byte each; false sorts before true, null before everything typed *)
Theorem bool_order : forall a b r s,
  bcmp (G_EncodeBoolAscending [] a ++ r) (G_EncodeBoolAscending [] b ++ s)
  = match Bool.compare a b with Eq => bcmp r s | c => c end.
Proof. intros [|] [|] r s; reflexivity. Qed.
