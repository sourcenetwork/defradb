(* Decoders for the integer key codec: hand transcription of DecodeUvarintAscending/Descending and
   DecodeVarintAscending/Descending (internal/encoding/int.go), errors as None.  Tied to the code by
   the C17 correspondence run; round-trip theorems against the GENERATED encoders' shapes. *)
From Coq Require Import List ZArith Lia ZifyBool.
From Verif Require Import ListFacts GoSem GenEnc Bytes Varint.
Import ListNotations.
Open Scope Z_scope.

Definition dec_uva (b : list Z) : option (list Z * Z) :=
  match b with
  | [] => None
  | t :: r =>
    let len := t - G_intZero in
    if len <=? G_intSmall then Some (r, u64 len)
    else
      let len := len - G_intSmall in
      if (len <? 0) || (len >? 8) then None
      else if Z.of_nat (length r) <? len then None
      else Some (skipn (Z.to_nat len) r, be_val (firstn (Z.to_nat len) r) 0)
  end.

Definition dec_uvd (b : list Z) : option (list Z * Z) :=
  match b with
  | [] => None
  | t :: r =>
    let len := G_intZero - t in
    if (len <? 0) || (len >? 8) then None
    else if Z.of_nat (length r) <? len then None
    else Some (skipn (Z.to_nat len) r, be_val (map not_u8 (firstn (Z.to_nat len) r)) 0)
  end.

Definition max_int64 : Z := 9223372036854775807.

Definition dec_va (b : list Z) : option (list Z * Z) :=
  match b with
  | [] => None
  | t :: r =>
    let len := t - G_intZero in
    if len <? 0 then
      let len := - len in
      if Z.of_nat (length r) <? len then None
      else Some (skipn (Z.to_nat len) r,
                 not_i64 (fold_left (fun acc x => i64 (acc * 256) + not_u8 x) (firstn (Z.to_nat len) r) 0))
    else match dec_uva b with
         | None => None
         | Some (r', v) => if v >? max_int64 then None else Some (r', v)
         end
  end.

Definition dec_vd (b : list Z) : option (list Z * Z) :=
  match dec_va b with None => None | Some (r, v) => Some (r, not_i64 v) end.

Lemma take_payload w p rest :
  (Z.of_nat (length (be_bytes w p ++ rest)) <? Z.of_nat w) = false /\
  firstn (Z.to_nat (Z.of_nat w)) (be_bytes w p ++ rest) = be_bytes w p /\
  skipn (Z.to_nat (Z.of_nat w)) (be_bytes w p ++ rest) = rest.
Proof.
  rewrite Nat2Z.id, app_length, be_bytes_length. split; [lia|].
  generalize (be_bytes_length w p). generalize (be_bytes w p). intros l <-.
  split; [apply firstn_app_exact | apply skipn_app_exact].
Qed.

Theorem dec_uva_roundtrip v rest : u64_range v -> dec_uva (enc_uva v ++ rest) = Some (rest, v).
Proof.
  intros Hv. pose proof (uw_range v) as Hw. pose proof (uw_fits v Hv) as Hf. unfold u64_range in Hv.
  unfold enc_uva, tp, dec_uva, uva_tag, uva_w. cbn [app].
  change G_intSmall with 109. change G_intZero with 136. change G_IntMax with 253.
  destruct (v <=? 109) eqn:Es.
  - rewrite Z.add_simpl_l, Es. unfold u64. rewrite Z.mod_small by lia. reflexivity.
  - replace (253 - 8 + Z.of_nat (uw v) - 136) with (109 + Z.of_nat (uw v)) by lia.
    destruct (109 + Z.of_nat (uw v) <=? 109) eqn:E1; [lia|]. rewrite Z.add_simpl_l.
    destruct ((Z.of_nat (uw v) <? 0) || (Z.of_nat (uw v) >? 8)) eqn:E2; [lia|].
    destruct (take_payload (uw v) v rest) as (-> & -> & ->). rewrite be_bytes_val, Z.mod_small by lia. reflexivity.
Qed.

Lemma be_val_map_not w : forall p, 0 <= p < 256 ^ Z.of_nat w ->
  be_val (map not_u8 (be_bytes w p)) 0 = 256 ^ Z.of_nat w - 1 - p.
Proof.
  induction w as [|w IH]; intros p Hp.
  - cbn in *. lia.
  - cbn [be_bytes]. rewrite map_app, be_val_app. cbn [map be_val].
    rewrite Nat2Z.inj_succ, Z.pow_succ_r in * by lia.
    rewrite IH by (split; [apply Z.div_pos | apply Z.div_lt_upper_bound]; lia).
    unfold not_u8. pose proof (Z.div_mod p 256). pose proof (Z.mod_pos_bound p 256). lia.
Qed.

Theorem dec_uvd_roundtrip v rest : u64_range v -> dec_uvd (enc_uvd v ++ rest) = Some (rest, v).
Proof.
  intros Hv. pose proof (uvd_w_range v) as Hw. pose proof (uvd_w_fits v Hv) as Hf. unfold u64_range in Hv.
  unfold enc_uvd, tp, dec_uvd. cbn [app]. change G_intZero with 136. change G_IntMin with 128.
  replace (136 - (128 + 8 - Z.of_nat (uvd_w v))) with (Z.of_nat (uvd_w v)) by lia.
  destruct ((Z.of_nat (uvd_w v) <? 0) || (Z.of_nat (uvd_w v) >? 8)) eqn:E2; [lia|].
  destruct (take_payload (uvd_w v) (256 ^ Z.of_nat (uvd_w v) - 1 - v) rest) as (-> & -> & ->).
  rewrite be_val_map_not by lia. do 2 f_equal. lia.
Qed.

(* the running value of the signed decoder's loop stays below 2^63, so its [i64] never wraps *)
Lemma fold_not_val w : forall p, 0 <= p < 256 ^ Z.of_nat w -> 256 ^ Z.of_nat w - 1 - p < 9223372036854775808 ->
  fold_left (fun acc x => i64 (acc * 256) + not_u8 x) (be_bytes w p) 0 = 256 ^ Z.of_nat w - 1 - p.
Proof.
  induction w as [|w IH]; intros p Hp Hs.
  - cbn in *. lia.
  - cbn [be_bytes]. rewrite fold_left_app. cbn [fold_left].
    rewrite Nat2Z.inj_succ, Z.pow_succ_r in * by lia.
    pose proof (Z.div_mod p 256). pose proof (Z.mod_pos_bound p 256).
    rewrite IH; [| split; [apply Z.div_pos | apply Z.div_lt_upper_bound] |]; try lia.
    unfold not_u8, i64. rewrite Z.mod_small; lia.
Qed.

Theorem dec_va_roundtrip v rest : i64_range v -> dec_va (enc_va v ++ rest) = Some (rest, v).
Proof.
  intros Hv. unfold enc_va. destruct (v <? 0) eqn:Hneg.
  - pose proof (uw_range (- v)) as Hw. pose proof (nw_fits v Hv ltac:(lia)) as Hf. unfold i64_range in Hv.
    unfold tp, dec_va. cbn [app]. change G_intZero with 136. change G_IntMin with 128.
    replace (128 + 8 - Z.of_nat (nw v) - 136) with (- Z.of_nat (nw v)) by lia. unfold nw in *.
    destruct (- Z.of_nat (uw (- v)) <? 0) eqn:E1; [|lia]. rewrite Z.opp_involutive.
    destruct (take_payload (uw (- v)) (v + 256 ^ Z.of_nat (uw (- v))) rest) as (-> & -> & ->).
    rewrite fold_not_val by lia. unfold not_i64. do 2 f_equal. lia.
  - assert (Hu : u64_range v) by (unfold u64_range, i64_range in *; lia).
    unfold dec_va, enc_uva, tp. cbn [app].
    assert (Htag : (uva_tag v - G_intZero <? 0) = false).
    { pose proof (uw_range v). unfold uva_tag, u64_range in *. change G_intSmall with 109. change G_intZero with 136.
      change G_IntMax with 253. destruct (v <=? 109); lia. }
    rewrite Htag. change (uva_tag v :: be_bytes (uva_w v) v ++ rest) with (enc_uva v ++ rest).
    rewrite dec_uva_roundtrip by assumption.
    unfold max_int64, i64_range in *. destruct (v >? _) eqn:E; [lia|reflexivity].
Qed.

Theorem dec_vd_roundtrip v rest : i64_range v -> dec_vd (enc_vd v ++ rest) = Some (rest, v).
Proof.
  intros Hv. unfold dec_vd, enc_vd. rewrite dec_va_roundtrip by (unfold i64_range, not_i64 in *; lia).
  unfold not_i64. do 2 f_equal. lia.
Qed.

Lemma roundtrip_shape {A} (dec : list Z -> option (list Z * A)) enc (g : list Z -> A -> list Z) (dom : A -> Prop) :
  (forall b v, dom v -> g b v = b ++ enc v) -> (forall v rest, dom v -> dec (enc v ++ rest) = Some (rest, v)) ->
  forall v rest, dom v -> dec (g [] v ++ rest) = Some (rest, v).
Proof. intros Hs H v rest Hv. rewrite Hs by assumption. apply H, Hv. Qed.

Theorem G_varint_asc_roundtrip v rest : i64_range v -> dec_va (G_EncodeVarintAscending [] v ++ rest) = Some (rest, v).
Proof. exact (roundtrip_shape _ _ _ _ G_varint_asc_shape dec_va_roundtrip v rest). Qed.
Theorem G_varint_desc_roundtrip v rest : i64_range v -> dec_vd (G_EncodeVarintDescending [] v ++ rest) = Some (rest, v).
Proof. exact (roundtrip_shape _ _ _ _ G_varint_desc_shape dec_vd_roundtrip v rest). Qed.
Theorem G_uvarint_asc_roundtrip v rest : u64_range v -> dec_uva (G_EncodeUvarintAscending [] v ++ rest) = Some (rest, v).
Proof. exact (roundtrip_shape _ _ _ _ G_uvarint_asc_shape dec_uva_roundtrip v rest). Qed.
Theorem G_uvarint_desc_roundtrip v rest : u64_range v -> dec_uvd (G_EncodeUvarintDescending [] v ++ rest) = Some (rest, v).
Proof. exact (roundtrip_shape _ _ _ _ G_uvarint_desc_shape dec_uvd_roundtrip v rest). Qed.
