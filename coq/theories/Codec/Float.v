(* Float key codec on IEEE bit patterns: theorems about the GENERATED G_EncodeFloat64/32*. *)
From Coq Require Import List ZArith Lia Bool.
From Verif Require Import GoSem GenEnc Bytes Varint.
Import ListNotations.
Open Scope Z_scope.

Lemma land_pow2_hi u n : 0 <= n -> 0 <= u < 2 ^ (n + 1) ->
  Z.land u (2 ^ n) = if u <? 2 ^ n then 0 else 2 ^ n.
Proof.
  intros Hn Hu. assert (Hp : 0 < 2 ^ n) by (apply Z.pow_pos_nonneg; lia).
  apply Z.bits_inj'. intros m Hm. rewrite Z.land_spec.
  destruct (Z.eq_dec m n) as [->|Hne].
  - rewrite Z.pow2_bits_true by lia. rewrite andb_true_r.
    destruct (u <? 2 ^ n) eqn:E.
    + rewrite Z.bits_0. destruct (Z.eq_dec u 0) as [->|Hu0]; [apply Z.bits_0|].
      apply Z.bits_above_log2; [lia|]. apply Z.log2_lt_pow2; lia.
    + rewrite Z.pow2_bits_true by lia. apply Z.testbit_true; [lia|].
      rewrite Z.pow_add_r in Hu by lia. change (2 ^ 1) with 2 in Hu.
      replace (u / 2 ^ n) with 1 by (apply Z.div_unique with (r := u - 2 ^ n); lia). reflexivity.
  - rewrite Z.pow2_bits_false by lia. rewrite andb_false_r.
    destruct (u <? 2 ^ n); [rewrite Z.bits_0 | rewrite Z.pow2_bits_false by lia]; reflexivity.
Qed.

Lemma land_sign64 u : 0 <= u < 18446744073709551616 ->
  Z.land u 9223372036854775808 = if u <? 9223372036854775808 then 0 else 9223372036854775808.
Proof. intros H. exact (land_pow2_hi u 63 ltac:(lia) H). Qed.
Lemma land_sign32 u : 0 <= u < 4294967296 ->
  Z.land u 2147483648 = if u <? 2147483648 then 0 else 2147483648.
Proof. intros H. exact (land_pow2_hi u 31 ltac:(lia) H). Qed.

Definition f64_range (u : Z) : Prop := 0 <= u < 18446744073709551616.
Definition f32_range (u : Z) : Prop := 0 <= u < 4294967296.

Lemma G_u64_shape b x : G_EncodeUint64Ascending b x = b ++ be_bytes 8 x.
Proof. rewrite be_bytes_shr. reflexivity. Qed.
Lemma G_u32_shape b x : G_EncodeUint32Ascending b x = b ++ be_bytes 4 x.
Proof. rewrite be_bytes_shr. reflexivity. Qed.

Definition enc_f64a (u : Z) : list Z :=
  if f64_is_nan u then [G_float64NaN]
  else if f64_is_zero u then [G_float64Zero]
  else if u <? f64_sign then tp G_float64Pos 8 u
  else tp G_float64Neg 8 (not_u64 u).

Definition enc_f64d (u : Z) : list Z :=
  if f64_is_nan u then [G_float64NaNDesc] else enc_f64a (f64_neg u).

Theorem G_float64_asc_shape b u : f64_range u -> G_EncodeFloat64Ascending b u = b ++ enc_f64a u.
Proof.
  unfold f64_range; intros Hu. unfold G_EncodeFloat64Ascending, enc_f64a.
  destruct (f64_is_nan u); [reflexivity|]. destruct (f64_is_zero u); [reflexivity|].
  rewrite (land_sign64 u Hu). unfold f64_sign.
  destruct (u <? 9223372036854775808) eqn:E; cbn [negb Z.eqb]; rewrite G_u64_shape, <- app_assoc; reflexivity.
Qed.

Theorem G_float64_desc_shape b u : f64_range u -> G_EncodeFloat64Descending b u = b ++ enc_f64d u.
Proof.
  intros Hu. unfold G_EncodeFloat64Descending, enc_f64d. destruct (f64_is_nan u); [reflexivity|].
  apply G_float64_asc_shape. unfold f64_range, f64_neg, f64_sign in *. destruct (u <? _) eqn:E; lia.
Qed.

(* total orders used by the index.  Ascending: NaN lowest, then numeric order with -0 = +0.
   Descending: numeric order reversed, NaN last. *)
Definition f64_okey (u : Z) : Z := if f64_is_nan u then - f64_sign else f64_key u.
Definition f64_okey_d (u : Z) : Z := if f64_is_nan u then f64_sign else - f64_key u.

(* Both encodings are one increasing function [ek64] of the order key k in [-2^63, 2^63]. *)
Definition ek64 (k : Z) : list Z :=
  if k =? - f64_sign then tp G_float64NaN 0 0
  else if k <? 0 then tp G_float64Neg 8 (f64_sign - 1 + k)
  else if k =? 0 then tp G_float64Zero 0 0
  else if k <? f64_sign then tp G_float64Pos 8 k
  else tp G_float64NaNDesc 0 0.

Lemma ek64_neg k : - f64_sign < k < 0 -> ek64 k = tp G_float64Neg 8 (f64_sign - 1 + k).
Proof. intros H. unfold ek64, f64_sign in *. destruct_ifs; try reflexivity; lia. Qed.

Lemma ek64_pos k : 0 < k < f64_sign -> ek64 k = tp G_float64Pos 8 k.
Proof. intros H. unfold ek64, f64_sign in *. destruct_ifs; try reflexivity; lia. Qed.

Lemma ek64_lt j k r s : - f64_sign <= j -> j < k -> k <= f64_sign -> bcmp (ek64 j ++ r) (ek64 k ++ s) = Lt.
Proof.
  intros Hj Hjk Hk.
  (* the five classes in their order: NaN, negative, zero, positive, NaN (descending); j is in one of the first four,
     k in one of the last four; across classes the markers decide, within one the payloads *)
  assert (Cj : j = - f64_sign \/ - f64_sign < j < 0 \/ j = 0 \/ 0 < j < f64_sign) by lia.
  assert (Ck : - f64_sign < k < 0 \/ k = 0 \/ 0 < k < f64_sign \/ k = f64_sign) by lia.
  destruct Cj as [-> | [Cj | [-> | Cj]]], Ck as [Ck | [-> | [Ck | ->]]]; try lia.
  all: change (ek64 (- f64_sign)) with (tp G_float64NaN 0 0); change (ek64 0) with (tp G_float64Zero 0 0);
    change (ek64 f64_sign) with (tp G_float64NaNDesc 0 0); rewrite ?ek64_neg, ?ek64_pos by assumption.
  all: apply tagged_lt; try (left; reflexivity).
  (* both negative, both positive *)
  all: right; change (256 ^ Z.of_nat 8) with 18446744073709551616; unfold f64_sign in *; lia.
Qed.

Lemma f64_mag_eq u : f64_range u -> f64_mag u = if u <? f64_sign then u else u - f64_sign.
Proof.
  unfold f64_range, f64_mag, f64_sign. intros.
  destruct (u <? _) eqn:E; [apply Z.mod_small | symmetry; apply Z.mod_unique with 1]; lia.
Qed.

Lemma enc_f64a_key u : f64_range u -> enc_f64a u = ek64 (f64_okey u).
Proof.
  intros Hu. unfold enc_f64a, f64_okey, f64_key, f64_is_nan, f64_is_zero. rewrite (f64_mag_eq u Hu).
  unfold f64_range, f64_inf in *. destruct (u <? f64_sign) eqn:Es; unfold f64_sign in Es.
  - destruct (u >? _) eqn:En; [reflexivity|]. destruct (u =? 0) eqn:Ez.
    + replace u with 0 by lia. reflexivity.
    + rewrite ek64_pos by (unfold f64_sign; lia). reflexivity.
  - destruct (u - f64_sign >? _) eqn:En; [reflexivity|]. unfold f64_sign in En. destruct (u - f64_sign =? 0) eqn:Ez; unfold f64_sign in Ez.
    + replace u with f64_sign by (unfold f64_sign; lia). reflexivity.
    + rewrite ek64_neg by (unfold f64_sign; lia). unfold tp. do 2 f_equal. unfold not_u64, f64_sign. lia.
Qed.

(* negation flips the sign bit: same magnitude, opposite key *)
Lemma f64_neg_range u : f64_range u -> f64_range (f64_neg u).
Proof. unfold f64_range, f64_neg, f64_sign. destruct (u <? _) eqn:E; lia. Qed.

Lemma f64_mag_neg u : f64_mag (f64_neg u) = f64_mag u.
Proof.
  unfold f64_mag, f64_neg. destruct (u <? f64_sign).
  - rewrite <- (Z_mod_plus_full u 1 f64_sign). f_equal; lia.
  - rewrite <- (Z_mod_plus_full u (-1) f64_sign). f_equal; lia.
Qed.

Lemma f64_key_neg u : f64_range u -> f64_key (f64_neg u) = - f64_key u.
Proof.
  unfold f64_range, f64_key, f64_neg, f64_sign. intros Hu. destruct (u <? 9223372036854775808) eqn:E.
  - replace (u + 9223372036854775808 <? 9223372036854775808) with false by lia. lia.
  - replace (u - 9223372036854775808 <? 9223372036854775808) with true by lia. lia.
Qed.

Lemma enc_f64d_key u : f64_range u -> enc_f64d u = ek64 (f64_okey_d u).
Proof.
  intros Hu. unfold enc_f64d, f64_okey_d. destruct (f64_is_nan u) eqn:En; [reflexivity|].
  rewrite enc_f64a_key by now apply f64_neg_range.
  unfold f64_okey, f64_is_nan in *. rewrite f64_mag_neg, En, f64_key_neg by assumption. reflexivity.
Qed.

Lemma f64_key_bound u : f64_range u -> - f64_sign < f64_key u < f64_sign.
Proof. unfold f64_key, f64_sign, f64_range. intros. destruct (u <? _) eqn:E; lia. Qed.

Theorem enc_f64a_order : sd_order (fun a b => f64_okey a ?= f64_okey b) enc_f64a f64_range.
Proof.
  assert (Hk : forall u, f64_range u -> - f64_sign <= f64_okey u < f64_sign).
  { intros u Hu. pose proof (f64_key_bound u Hu). unfold f64_okey. destruct (f64_is_nan u); lia. }
  apply sd_order_of_key.
  - intros a b r s Ha Hb Hab. rewrite !enc_f64a_key by assumption. apply ek64_lt; auto; apply Hk in Ha, Hb; lia.
  - intros a b Ha Hb E. rewrite !enc_f64a_key, E by assumption. reflexivity.
Qed.

Theorem enc_f64d_order : sd_order (fun a b => f64_okey_d a ?= f64_okey_d b) enc_f64d f64_range.
Proof.
  assert (Hk : forall u, f64_range u -> - f64_sign < f64_okey_d u <= f64_sign).
  { intros u Hu. pose proof (f64_key_bound u Hu). unfold f64_okey_d. destruct (f64_is_nan u); lia. }
  apply sd_order_of_key.
  - intros a b r s Ha Hb Hab. rewrite !enc_f64d_key by assumption. apply ek64_lt; auto; apply Hk in Ha, Hb; lia.
  - intros a b Ha Hb E. rewrite !enc_f64d_key, E by assumption. reflexivity.
Qed.

Theorem G_float64_asc_order :
  sd_order (fun a b => Z.compare (f64_okey a) (f64_okey b)) (G_EncodeFloat64Ascending []) f64_range.
Proof. exact (sd_order_shape _ _ _ _ G_float64_asc_shape enc_f64a_order). Qed.
Theorem G_float64_desc_order :
  sd_order (fun a b => Z.compare (f64_okey_d a) (f64_okey_d b)) (G_EncodeFloat64Descending []) f64_range.
Proof. exact (sd_order_shape _ _ _ _ G_float64_desc_shape enc_f64d_order). Qed.
