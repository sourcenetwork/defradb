(* List facts that several models need: an invariant carried through a history, membership tests spelt with
   [existsb] and [Nat.eqb], [filter], keys of an association list under it, folds over permutations. *)
From Coq Require Import List PeanoNat Bool Permutation.
Import ListNotations.

Lemma fold_left_inv {S O} (P : S -> Prop) (step : S -> O -> S) :
  (forall s o, P s -> P (step s o)) -> forall os s, P s -> P (fold_left step os s).
Proof. intros H os. induction os as [|o os IH]; intros s Hs; cbn [fold_left]; auto. Qed.

Lemma existsb_eqb_In x l : existsb (Nat.eqb x) l = true <-> In x l.
Proof.
  rewrite existsb_exists. split.
  - intros [y [Hy E]]. apply Nat.eqb_eq in E. now subst.
  - intros H. exists x. split; [assumption | apply Nat.eqb_refl].
Qed.

Lemma existsb_eqb_notIn x l : existsb (Nat.eqb x) l = false <-> ~ In x l.
Proof. rewrite <- existsb_eqb_In. destruct (existsb _ l); split; congruence. Qed.

Lemma existsb_eqb_pair_In a b (l : list (nat * nat)) :
  existsb (fun e => Nat.eqb (fst e) a && Nat.eqb (snd e) b) l = true <-> In (a, b) l.
Proof.
  rewrite existsb_exists. split.
  - intros [[a' b'] [Hin [E1 E2]%andb_prop]]. apply Nat.eqb_eq in E1, E2. cbn in *. now subst.
  - intros H. exists (a, b). split; [exact H|]. cbn. now rewrite !Nat.eqb_refl.
Qed.

Lemma filter_neqb_fst_notIn {B} x (l : list (nat * B)) :
  ~ In x (map fst (filter (fun e => negb (Nat.eqb (fst e) x)) l)).
Proof.
  intros [e [<- [_ He]%filter_In]]%in_map_iff. rewrite Nat.eqb_refl in He. discriminate.
Qed.

Lemma firstn_app_exact {A} (l r : list A) : firstn (length l) (l ++ r) = l.
Proof. induction l; simpl; f_equal; auto. Qed.
Lemma skipn_app_exact {A} (l r : list A) : skipn (length l) (l ++ r) = r.
Proof. induction l; simpl; auto. Qed.

Lemma filter_comm {A} (f g : A -> bool) l : filter f (filter g l) = filter g (filter f l).
Proof.
  induction l as [|x l IH]; [reflexivity|]. cbn [filter].
  destruct (f x) eqn:Ef, (g x) eqn:Eg; cbn [filter]; rewrite ?Ef, ?Eg, IH; reflexivity.
Qed.

Lemma filter_implied {A} (f g : A -> bool) l : (forall x, g x = true -> f x = true) -> filter g (filter f l) = filter g l.
Proof.
  intros H. induction l as [|x l IH]; [reflexivity|]. cbn [filter].
  destruct (f x) eqn:Ef; cbn [filter]; rewrite IH; [reflexivity|].
  destruct (g x) eqn:Eg; [|reflexivity]. rewrite (H x Eg) in Ef. discriminate.
Qed.

Lemma filter_perm {A} (f : A -> bool) l1 l2 : Permutation l1 l2 -> Permutation (filter f l1) (filter f l2).
Proof.
  induction 1; cbn [filter]; auto.
  - destruct (f x); auto.
  - destruct (f x), (f y); auto. constructor.
  - etransitivity; eauto.
Qed.

Lemma NoDup_app_intro {A} (l1 l2 : list A) :
  NoDup l1 -> NoDup l2 -> (forall x, In x l1 -> ~ In x l2) -> NoDup (l1 ++ l2).
Proof.
  induction 1 as [|a l1 Ha Hn IH]; intros H2 Hd; cbn [app]; auto.
  constructor.
  - rewrite in_app_iff. intros [H|H]; [auto | apply (Hd a); simpl; auto].
  - apply IH; auto. intros x Hx. apply Hd. right. exact Hx.
Qed.

Lemma NoDup_map_filter {A B} (g : A -> B) (f : A -> bool) l : NoDup (map g l) -> NoDup (map g (filter f l)).
Proof.
  induction l as [|x l IH]; cbn [map filter]; intros ND; [constructor|].
  inversion ND as [|? ? Hn ND']; subst. destruct (f x); cbn [map]; auto.
  constructor; auto. intros Hin. apply Hn. apply in_map_iff in Hin. destruct Hin as [y [E Hy]].
  apply filter_In in Hy. apply in_map_iff. exists y. tauto.
Qed.

Section FoldPerm.
  Context {S O : Type} (R : S -> S -> Prop) (op : S -> O -> S).
  Hypothesis R_refl : forall a, R a a.
  Hypothesis R_trans : forall a b c, R a b -> R b c -> R a c.
  Hypothesis congr : forall a b x, R a b -> R (op a x) (op b x).
  Hypothesis comm : forall a x y, R (op (op a x) y) (op (op a y) x).

  Lemma fold_left_congr l : forall a b, R a b -> R (fold_left op l a) (fold_left op l b).
  Proof. induction l as [|x l IH]; intros a b H; cbn [fold_left]; auto. Qed.

  Lemma fold_left_perm l1 l2 : Permutation l1 l2 ->
    forall a b, R a b -> R (fold_left op l1 a) (fold_left op l2 b).
  Proof.
    induction 1 as [|x l1 l2 Hp IH|x y l|l1 l2 l3 H1 IH1 H2 IH2]; intros a b Hab; cbn [fold_left]; auto.
    - apply fold_left_congr. eapply R_trans; [apply comm|]. auto.
    - eapply R_trans; [apply IH1; exact Hab|]. apply IH2, R_refl.
  Qed.
End FoldPerm.
