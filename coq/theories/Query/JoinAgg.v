(* Ordering and aggregates that reach through a relation (planner/type_join.go, order.go, sum.go / count.go over a
   joined sub-selection). The children are the rows of the link table; a child's sort key is its parent's field, null
   (lowest) when it has no parent. Whatever plan lists the children - a scan of the children followed by a sort, or a
   walk over the parents in index order - a listing that is complete and ordered shows one and the same sequence of
   sort keys; per-parent aggregates are aggregates over the children selected from the child side. *)
From Coq Require Import List ZArith Bool Lia Permutation Sorted.
From Verif Require Import ListFacts Sem SemProofs Join.
Import ListNotations.

Definition ocmp (a b : option Z) : comparison :=
  match a, b with
  | None, None => Eq
  | None, Some _ => Lt
  | Some _, None => Gt
  | Some x, Some y => (x ?= y)%Z
  end.
Definition dcmp (desc : bool) (a b : option Z) : comparison := if desc then CompOpp (ocmp a b) else ocmp a b.

(* the sort key of a child: the parent's field *)
Definition ck (key : nat -> option Z) (l : nat * option nat) : option Z :=
  match snd l with Some p => key p | None => None end.
Definition lcmp (desc : bool) (key : nat -> option Z) (a b : nat * option nat) : comparison :=
  dcmp desc (ck key a) (ck key b).
Definition order_children (desc : bool) (key : nat -> option Z) (ls : links) : links := sort_by (lcmp desc key) ls.

Definition kle (desc : bool) (a b : option Z) : Prop := dcmp desc a b <> Gt.
Definition ordered (desc : bool) (key : nat -> option Z) (l : links) : Prop :=
  StronglySorted (fun a b => kle desc (ck key a) (ck key b)) l.

Lemma ocmp_ord : ord ocmp (fun _ => True).
Proof.
  split; [intros [x|] [y|]; cbn; auto using Z.compare_antisym|].
  unfold le. intros [x|] [y|] [z|] _ _ _; cbn; try congruence. exact (Z.le_trans x y z).
Qed.
Lemma dcmp_ord d : ord (dcmp d) (fun _ => True).
Proof. destruct d; [exact (ord_opp ocmp_ord) | exact ocmp_ord]. Qed.

Lemma ocmp_eq a b : ocmp a b = Eq -> a = b.
Proof. destruct a, b; cbn; intros H; try discriminate; auto. apply Z.compare_eq in H. now subst. Qed.
Lemma kle_antisym d a b : kle d a b -> kle d b a -> a = b.
Proof.
  unfold kle. rewrite (ord_antisym (dcmp_ord d) a b). intros H1 H2. apply ocmp_eq.
  unfold dcmp in *. destruct d, (ocmp a b); cbn in *; congruence.
Qed.

(* the sorted listing keeps every child - the ones without a parent included - and is ordered *)
Theorem order_children_complete desc key ls : Permutation (order_children desc key ls) ls.
Proof. apply sort_by_perm. Qed.

Theorem order_children_ordered desc key ls : ordered desc key (order_children desc key ls).
Proof.
  apply (sort_by_sorted _ _ (ord_on (ck key) _ (fun _ H => H) (dcmp_ord desc))).
  apply Forall_forall. auto.
Qed.

Lemma sorted_map desc key l : ordered desc key l -> StronglySorted (kle desc) (map (ck key) l).
Proof. unfold ordered. induction 1 as [|a l Hs IH Hf]; cbn [map]; constructor; auto. now apply Forall_map. Qed.

Lemma sorted_perm_unique {A} (R : A -> A -> Prop) : (forall a b, R a b -> R b a -> a = b) -> forall l1 l2,
  StronglySorted R l1 -> StronglySorted R l2 -> Permutation l1 l2 -> l1 = l2.
Proof.
  intros HR l1 l2 S1. revert l2. induction S1 as [|a t1 S1 IH F1]; intros l2 S2 HP.
  - symmetry. exact (Permutation_nil HP).
  - destruct S2 as [|b t2 S2 F2]; [destruct (Permutation_nil_cons (Permutation_sym HP))|].
    (* each head occurs in the other list: as its head, or behind it and so above it *)
    assert (Hab : a = b).
    { destruct (Permutation_in _ HP (in_eq a t1)) as [Ha|Ha]; [now subst|].
      destruct (Permutation_in _ (Permutation_sym HP) (in_eq b t2)) as [Hb|Hb]; [now subst|].
      exact (HR a b (proj1 (Forall_forall _ _) F1 b Hb) (proj1 (Forall_forall _ _) F2 a Ha)). }
    subst b. f_equal. exact (IH t2 S2 (Permutation_cons_inv HP)).
Qed.

(* whichever plan produced them, two complete and ordered listings of the children show the same sequence of sort
   keys; in particular every plan agrees with the scan-and-sort plan *)
Theorem order_keys_unique desc key ls l1 l2 :
  Permutation l1 ls -> Permutation l2 ls -> ordered desc key l1 -> ordered desc key l2 ->
  map (ck key) l1 = map (ck key) l2.
Proof.
  intros P1 P2 O1 O2. apply (sorted_perm_unique (kle desc) (kle_antisym desc)); try (now apply sorted_map).
  apply Permutation_map. eapply Permutation_trans; [exact P1 | apply Permutation_sym; exact P2].
Qed.

Corollary any_plan_agrees_with_sort desc key ls l :
  Permutation l ls -> ordered desc key l -> map (ck key) l = map (ck key) (order_children desc key ls).
Proof.
  intros HP HO. apply (order_keys_unique desc key ls); auto.
  - apply order_children_complete.
  - apply order_children_ordered.
Qed.

(* a listing that leaves out a child is not the answer: its length differs *)
Corollary dropped_child_detected key (ls l : links) :
  Permutation l ls -> length (map (ck key) l) = length ls.
Proof. intros HP. rewrite map_length. apply Permutation_length. exact HP. Qed.

(* children without a parent come first ascending and last descending *)
Lemma orphan_lowest key a b : snd a = None -> kle false (ck key a) (ck key b).
Proof. unfold kle, dcmp, ck. intros ->. destruct (match snd b with Some p => key p | None => None end); cbn; congruence. Qed.
Lemma orphan_highest key a b : snd b = None -> kle true (ck key a) (ck key b).
Proof. unfold kle, dcmp, ck. intros ->. destruct (match snd a with Some p => key p | None => None end); cbn; congruence. Qed.

Definition wsum (w : nat -> Z) (cs : list nat) : Z := fold_right Z.add 0%Z (map w cs).
Definition wcount (cs : list nat) : Z := Z.of_nat (length cs).

(* the children of p seen from the parent side are the children selected from the child side by "parent = p" *)
Theorem children_from_child_side ls p : children ls p = children_with (fun q => Nat.eqb q p) ls.
Proof. reflexivity. Qed.

Corollary aggregates_direction_independent (agg : list nat -> Z) ls p :
  agg (children ls p) = agg (children_with (fun q => Nat.eqb q p) ls).
Proof. now rewrite children_from_child_side. Qed.

(* totals: summing the per-parent aggregate over the parents = the aggregate over the children linked to one of them *)
Fixpoint total (f : nat -> Z) (ps : list nat) : Z := match ps with [] => 0%Z | p :: r => (f p + total f r)%Z end.
Definition linked_in (ps : list nat) (l : nat * option nat) : bool :=
  match snd l with Some p => existsb (Nat.eqb p) ps | None => false end.

Lemma children_cons l ls p :
  children (l :: ls) p = if points_to p l then fst l :: children ls p else children ls p.
Proof. unfold children. cbn [filter]. destruct (points_to p l); reflexivity. Qed.

Lemma linked_in_cons p ps l : linked_in (p :: ps) l = points_to p l || linked_in ps l.
Proof. unfold linked_in, points_to. now destruct (snd l). Qed.

Lemma total_cons w l ls ps : NoDup ps ->
  total (fun p => wsum w (children (l :: ls) p)) ps =
  ((if linked_in ps l then w (fst l) else 0) + total (fun p => wsum w (children ls p)) ps)%Z.
Proof.
  induction 1 as [|p ps Hnin ND IH]; cbn [total]; [unfold linked_in; now destruct (snd l)|].
  rewrite IH, children_cons, linked_in_cons. destruct (points_to p l) eqn:E; cbn [orb]; [|lia].
  replace (linked_in ps l) with false; [unfold wsum; cbn [map fold_right]; lia|].
  unfold points_to, linked_in in *. destruct (snd l) as [q|]; [|discriminate].
  apply Nat.eqb_eq in E. subst q. symmetry. now apply existsb_eqb_notIn.
Qed.

Theorem totals_agree w ps ls : NoDup ps ->
  total (fun p => wsum w (children ls p)) ps = wsum w (map fst (filter (linked_in ps) ls)).
Proof.
  intros ND. induction ls as [|l ls IH].
  - clear ND. induction ps as [|p ps IHp]; cbn [total]; [reflexivity | now rewrite IHp].
  - cbn [filter]. rewrite (total_cons w l ls ps ND), IH.
    destruct (linked_in ps l); unfold wsum; cbn [map fold_right]; lia.
Qed.

Example order_nonvacuous :
  let key := fun p : nat => match p with 0%nat => Some 3%Z | 1%nat => Some 1%Z | _ => None end in
  let ls := [(0, Some 0); (1, None); (2, Some 1); (3, Some 0)]%nat in
  map fst (order_children false key ls) = [1; 2; 0; 3]%nat /\ map fst (order_children true key ls) = [0; 3; 2; 1]%nat /\
  total (fun p => wsum (fun c => Z.of_nat c) (children ls p)) [0; 1]%nat = 5%Z.
Proof. vm_compute. repeat split. Qed.
