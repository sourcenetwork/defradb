(* Properties of the query semantics, for all documents and all queries. *)
From Coq Require Import List ZArith Lia Permutation Sorted.
From Verif Require Import Bytes Sem.
Import ListNotations.
Local Open Scope Z_scope.

Lemma eval_and l d : eval_filter (FAnd l) d = forallb (fun g => eval_filter g d) l.
Proof. induction l as [|g l IH]; [reflexivity|]. cbn [eval_filter forallb] in *. rewrite <- IH. reflexivity. Qed.
Lemma eval_or l d : eval_filter (FOr l) d = existsb (fun g => eval_filter g d) l.
Proof. induction l as [|g l IH]; [reflexivity|]. cbn [eval_filter existsb] in *. rewrite <- IH. reflexivity. Qed.
Lemma eval_not g d : eval_filter (FNot g) d = negb (eval_filter g d).
Proof. reflexivity. Qed.

Definition sel {I} (g : qfilter) (docs : list (I * doc)) := filter (fun x => eval_filter g (snd x)) docs.

Theorem filter_exact {I} g (docs : list (I * doc)) x :
  In x (sel g docs) <-> In x docs /\ eval_filter g (snd x) = true.
Proof. unfold sel. apply filter_In. Qed.

Theorem filter_partition {I} g (docs : list (I * doc)) :
  Permutation (sel g docs ++ sel (FNot g) docs) docs /\
  (forall x, In x (sel g docs) -> In x (sel (FNot g) docs) -> False) /\
  (length (sel g docs) + length (sel (FNot g) docs) = length docs)%nat.
Proof.
  assert (HP : Permutation (sel g docs ++ sel (FNot g) docs) docs).
  { unfold sel. induction docs as [|x docs IH]; [constructor|]. cbn [filter eval_filter].
    destruct (eval_filter g (snd x)); cbn [negb app]; [|rewrite <- Permutation_middle]; now constructor. }
  split; [exact HP|]. split.
  - intros x H1 H2. apply filter_exact in H1, H2. rewrite eval_not, (proj2 H1) in H2. now destruct H2.
  - rewrite <- (Permutation_length HP). symmetry. apply app_length.
Qed.

Theorem filter_and_intersection {I} l (docs : list (I * doc)) x :
  In x (sel (FAnd l) docs) <-> In x docs /\ forall g, In g l -> In x (sel g docs).
Proof.
  rewrite filter_exact, eval_and, forallb_forall. split.
  - intros [Hx H]. split; auto. intros g Hg. apply filter_exact. auto.
  - intros [Hx H]. split; auto. intros g Hg. specialize (H g Hg). apply filter_exact in H. exact (proj2 H).
Qed.
Theorem filter_or_union {I} l (docs : list (I * doc)) x :
  In x (sel (FOr l) docs) <-> exists g, In g l /\ In x (sel g docs).
Proof.
  rewrite filter_exact, eval_or, existsb_exists. split.
  - intros [Hx [g [Hg He]]]. exists g. split; auto. apply filter_exact. auto.
  - intros [g [Hg Hs]]. apply filter_exact in Hs. destruct Hs. split; auto. exists g. auto.
Qed.

Definition le {A} (cmp : A -> A -> comparison) (x y : A) : Prop := cmp x y <> Gt.

(* a three-way comparison that orders the elements of P: total by antisymmetry, and [le] is transitive on P *)
Record ord {A} (cmp : A -> A -> comparison) (P : A -> Prop) : Prop := {
  ord_antisym : forall x y, cmp y x = CompOpp (cmp x y);
  ord_trans : forall x y z, P x -> P y -> P z -> le cmp x y -> le cmp y z -> le cmp x z }.
Arguments ord_antisym {A cmp P}.
Arguments ord_trans {A cmp P}.

Lemma ord_opp {A} {cmp : A -> A -> comparison} {P} : ord cmp P -> ord (fun x y => CompOpp (cmp x y)) P.
Proof.
  intros O. split; [intros x y; now rewrite (ord_antisym O x y)|].
  intros x y z Px Py Pz. unfold le. rewrite <- !(ord_antisym O). intros Hyx Hzy. exact (ord_trans O z y x Pz Py Px Hzy Hyx).
Qed.

Lemma le_lex {A} (c1 c2 : A -> A -> comparison) x y : (forall x y, c1 y x = CompOpp (c1 x y)) ->
  le (fun x y => match c1 x y with Eq => c2 x y | c => c end) x y <-> le c1 x y /\ (le c1 y x -> le c2 x y).
Proof.
  intros H. unfold le. rewrite (H x y). destruct (c1 x y); cbn.
  - split; [intros G; split; [discriminate | trivial] | intros [_ G]; apply G; discriminate].
  - split; [split; [discriminate | intros G; now destruct G] | discriminate].
  - split; [intros G; now destruct G | intros [G _]; exact G].
Qed.

Lemma ord_lex {A} {c1 c2 : A -> A -> comparison} {P} :
  ord c1 P -> ord c2 P -> ord (fun x y => match c1 x y with Eq => c2 x y | c => c end) P.
Proof.
  intros O1 O2. split.
  - intros x y. rewrite (ord_antisym O1 x y), (ord_antisym O2 x y). now destruct (c1 x y).
  - intros x y z Px Py Pz Hxy Hyz. apply (le_lex _ _ _ _ (ord_antisym O1)) in Hxy, Hyz.
    destruct Hxy as [H1 H2], Hyz as [H3 H4]. apply (le_lex _ _ _ _ (ord_antisym O1)). split.
    + now apply (ord_trans O1 x y z).
    + intros Hzx. apply (ord_trans O2 x y z); auto.
      * apply H2. now apply (ord_trans O1 y z x).
      * apply H4. now apply (ord_trans O1 z x y).
Qed.

(* elements B that are below everything, and above nothing else, may be added to the domain *)
Lemma ord_bot {A} (cmp : A -> A -> comparison) (B P : A -> Prop) :
  (forall x y, B x -> le cmp x y) -> (forall x y, le cmp x y -> B y -> B x) ->
  ord cmp P -> ord cmp (fun x => B x \/ P x).
Proof.
  intros Hl Hr O. split; [apply O|]. intros x y z Px Py Pz Hxy Hyz.
  destruct Px as [Bx|Px]; [now apply Hl|].
  destruct Py as [By|Py]; [now apply Hl, (Hr x y)|].
  destruct Pz as [Bz|Pz]; [now apply Hl, (Hr x y), (Hr y z) | now apply (ord_trans O x y z)].
Qed.

Lemma ord_on {A B} (f : B -> A) {cmp} {P : A -> Prop} (Q : B -> Prop) :
  (forall x, Q x -> P (f x)) -> ord cmp P -> ord (fun x y => cmp (f x) (f y)) Q.
Proof. intros H O. split; [intros; apply O | intros x y z Qx Qy Qz; apply O; auto]. Qed.

Section Sort.
Context {A : Type} (cmp : A -> A -> comparison) (P : A -> Prop) (O : ord cmp P).

Lemma sort_by_snoc l x : sort_by cmp (l ++ [x]) = insert_by cmp x (sort_by cmp l).
Proof. unfold sort_by. now rewrite fold_left_app. Qed.

Lemma insert_perm x l : Permutation (insert_by cmp x l) (x :: l).
Proof.
  induction l as [|y l IH]; [reflexivity|]. cbn [insert_by].
  destruct (cmp x y); [|reflexivity|]; rewrite IH; apply perm_swap.
Qed.

Theorem sort_by_perm l : Permutation (sort_by cmp l) l.
Proof.
  induction l as [|x l IH] using rev_ind; [reflexivity|].
  rewrite sort_by_snoc, insert_perm, IH. apply Permutation_cons_append.
Qed.

Lemma insert_sorted x l : P x -> Forall P l -> StronglySorted (le cmp) l -> StronglySorted (le cmp) (insert_by cmp x l).
Proof.
  intros Px Pl. induction 1 as [|y l Hs IH Hf]; cbn [insert_by]; [repeat constructor|].
  inversion Pl as [|? ? Py Pl']; subst.
  assert (Front : le cmp x y -> StronglySorted (le cmp) (x :: y :: l)).
  { (* x is below what follows y by transitivity *)
    intros Hxy. repeat constructor; auto. apply (Forall_impl _ (P := fun z => P z /\ le cmp y z)); [|now apply Forall_and].
    intros z [Pz Hyz]. exact (ord_trans O x y z Px Py Pz Hxy Hyz). }
  assert (Behind : le cmp y x -> StronglySorted (le cmp) (y :: insert_by cmp x l)).
  { intros Hyx. constructor; [now apply IH|]. apply (Permutation_Forall (Permutation_sym (insert_perm x l))). now constructor. }
  (* insert_by puts x in front exactly when [cmp x y = Lt] *)
  unfold le in Front, Behind. rewrite (ord_antisym O x y) in Behind.
  destruct (cmp x y); [apply Behind | apply Front | apply Behind]; discriminate.
Qed.

Theorem sort_by_sorted l : Forall P l -> StronglySorted (le cmp) (sort_by cmp l).
Proof.
  induction l as [|x l IH] using rev_ind; intros H; [constructor|].
  apply Forall_app in H. destruct H as [Hl Hx]. rewrite sort_by_snoc. apply insert_sorted; auto.
  - now inversion Hx.
  - exact (Permutation_Forall (Permutation_sym (sort_by_perm l)) Hl).
Qed.
End Sort.

Lemma lz_eqb_sym a : forall b, lz_eqb a b = lz_eqb b a.
Proof. induction a as [|x a IH]; intros [|y b]; cbn; auto. rewrite Z.eqb_sym, IH. reflexivity. Qed.

Lemma veq_sym a b : veq a b = veq b a.
Proof.
  destruct a as [|x|x|x|x], b as [|y|y|y|y]; cbn; auto; try apply Z.eqb_sym; try apply lz_eqb_sym.
  destruct x, y; reflexivity.
Qed.

Lemma veq_nonnull a b : veq a b = true -> is_null a = false -> is_null b = false.
Proof. destruct b; auto. destruct a; discriminate. Qed.

Lemma num_vcmp a b x y : num a = Some x -> num b = Some y -> vcmp a b = (x ?= y).
Proof. destruct a; try discriminate; destruct b; try discriminate; cbn; congruence. Qed.

Lemma zcmp_antisym x y : (y ?= x) = CompOpp (x ?= y).
Proof. apply Z.compare_antisym. Qed.

Lemma vcmp_antisym a b : vcmp b a = CompOpp (vcmp a b).
Proof.
  destruct a as [|x|x|x|x], b as [|y|y|y|y]; cbn [vcmp num]; try reflexivity;
    try apply Z.compare_antisym; try apply bcmp_antisym.
  destruct x, y; reflexivity.
Qed.

(* base.Compare is only ever applied to two values of one field: same kind, or null *)
Definition kind (v : val) : nat := match v with VNull => 0 | VBool _ => 1 | VInt _ | VFlt _ => 2 | VStr _ => 3 end%nat.

Lemma vcmp_ord t : ord vcmp (fun v => kind v = 0%nat \/ kind v = t).
Proof.
  apply ord_bot.
  - intros [] y; try discriminate. intros _. unfold le. destruct y; discriminate.
  - unfold le. intros x [] H; try discriminate. intros _. destruct x; cbn in *; congruence.
  - (* three values of one kind: null, booleans, numbers ([x <= y] is by definition [(x ?= y) <> Gt]), strings *)
    split; [exact vcmp_antisym|]. unfold le. intros a b c <- Hb Hc.
    destruct a as [|x|x|x|x], b as [|y|y|y|y]; try discriminate Hb;
      destruct c as [|z|z|z|z]; try discriminate Hc; cbn [vcmp num]; try exact (Z.le_trans _ _ _).
    + auto.
    + destruct x, y, z; auto; congruence.
    + apply bcmp_le_trans.
Qed.

(* documents typed by a schema: each field holds null or a value of the field's kind *)
Definition wt (ty : nat -> nat) (d : doc) : Prop := forall f, kind (field d f) = 0%nat \/ kind (field d f) = ty f.

Lemma key_ord ty k : ord (key_cmp k) (wt ty).
Proof.
  destruct k as [f desc].
  pose proof (ord_on (fun d => field d f) (wt ty) (fun d W => W f) (vcmp_ord (ty f))) as O.
  destruct desc; [exact (ord_opp O) | exact O].
Qed.

Lemma lex_ord ty ks : ord (lex_cmp ks) (wt ty).
Proof.
  induction ks as [|k ks IH]; [split; [reflexivity | discriminate]|].
  exact (ord_lex (key_ord ty k) IH).
Qed.

(* the documented ordering sorts by the first key and breaks ties by each following key *)
Theorem order_doc_sorted {I} ty ks (l : list (I * doc)) : Forall (fun x => wt ty (snd x)) l ->
  StronglySorted (fun a b => lex_cmp ks (snd a) (snd b) <> Gt) (order_doc ks l) /\ Permutation (order_doc ks l) l.
Proof.
  intros Hwt. split; [|apply sort_by_perm].
  exact (sort_by_sorted _ _ (ord_on snd _ (fun _ H => H) (lex_ord ty ks)) l Hwt).
Qed.

(* the coded ordering consults only the first key: it differs from the documented one (finding F7) *)
Example order_coded_refuted :
  let docs := [(0%nat, [VInt 1; VInt 2]); (1%nat, [VInt 1; VInt 1])] in
  map fst (order_doc [(0%nat, false); (1%nat, false)] docs) = [1%nat; 0%nat] /\
  map fst (order_coded [(0%nat, false); (1%nat, false)] docs) = [0%nat; 1%nat].
Proof. vm_compute. split; reflexivity. Qed.

Theorem slice_spec {A} (o l : nat) (xs : list A) :
  slice o l xs = match l with O => skipn o xs | _ => firstn l (skipn o xs) end.
Proof. reflexivity. Qed.

Theorem limit_is_prefix {A} (l : nat) (xs : list A) : exists rest, xs = slice 0 l xs ++ rest.
Proof.
  unfold slice. cbn [skipn]. destruct l; [exists []; symmetry; apply app_nil_r|].
  exists (skipn (S l) xs). symmetry. apply firstn_skipn.
Qed.

Theorem count_spec {I} g (docs : list (I * doc)) : agg_count g docs = Z.of_nat (length (sel g docs)).
Proof. reflexivity. Qed.

Lemma fold_pick (op : Z -> Z -> Z) (R : Z -> Z -> Prop) :
  (forall a, R a a) -> (forall a b c, R a b -> R b c -> R a c) ->
  (forall a b, (op a b = a \/ op a b = b) /\ R (op a b) a /\ R (op a b) b) ->
  forall r x, In (fold_right op x r) (x :: r) /\ forall z, In z (x :: r) -> R (fold_right op x r) z.
Proof.
  intros Rr Rt Hop. induction r as [|y r IH]; intros x; cbn [fold_right].
  - split; [now left | intros z [<-|[]]; apply Rr].
  - (* up to order x :: y :: r is y :: x :: r; [op y m] is y or m, and below both *)
    destruct (IH x) as [H1 H2], (Hop y (fold_right op x r)) as [Hc [Ha Hb]]. split.
    + apply (Permutation_in _ (perm_swap x y r)). destruct Hc as [-> | ->]; [now left | now right].
    + intros z Hz. apply (Permutation_in _ (perm_swap y x r)) in Hz.
      destruct Hz as [<-|Hz]; [exact Ha | exact (Rt _ _ _ Hb (H2 z Hz))].
Qed.

Theorem min_max_spec {I} g f (docs : list (I * doc)) :
  match agg_min g f docs, agg_max g f docs with
  | Some mn, Some mx => In mn (nums_of g f docs) /\ In mx (nums_of g f docs) /\ forall z, In z (nums_of g f docs) -> mn <= z <= mx
  | None, None => nums_of g f docs = []
  | _, _ => False
  end.
Proof.
  unfold agg_min, agg_max. destruct (nums_of g f docs) as [|x r]; [reflexivity|].
  destruct (fold_pick Z.min Z.le Z.le_refl Z.le_trans) with (r := r) (x := x) as [H1 H2]; [lia|].
  destruct (fold_pick Z.max Z.ge) with (r := r) (x := x) as [H3 H4]; [lia..|].
  repeat split; auto. apply Z.ge_le. auto.
Qed.
