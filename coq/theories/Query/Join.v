(* Relations: the primary side stores the foreign key; every way of reading the relation is a view of the same
   link table (planner/type_join.go: typeIndexJoin in both directions). *)
From Coq Require Import List Arith.
From Verif Require Import Sem Index.
Import ListNotations.

Definition links := list (nat * option nat).          (* child id, parent id it points to *)

Definition points_to (p : nat) (l : nat * option nat) : bool :=
  match snd l with Some q => Nat.eqb q p | None => false end.
Definition children (ls : links) (p : nat) : list nat := map fst (filter (points_to p) ls).
Definition pairs_from_parent (ps : list nat) (ls : links) : list (nat * nat) :=
  flat_map (fun p => map (fun c => (p, c)) (children ls p)) ps.
Definition pairs_from_child (ls : links) : list (nat * nat) :=
  flat_map (fun l => match snd l with Some p => [(p, fst l)] | None => [] end) ls.

(* filters through the relation are views of the same pair set, whichever side the query starts from *)
Definition parents_with (P : nat -> bool) (ps : list nat) (ls : links) : list nat :=
  filter (fun p => existsb P (children ls p)) ps.
Definition children_with (Q : nat -> bool) (ls : links) : list nat :=
  map fst (filter (fun l => match snd l with Some p => Q p | None => false end) ls).

Theorem children_with_spec Q ls c :
  In c (children_with Q ls) <-> exists p, In (c, Some p) ls /\ Q p = true.
Proof.
  unfold children_with. rewrite in_map_iff. split.
  - intros [[c' o] [E Hin]]. cbn in E. subst. apply filter_In in Hin. destruct Hin as [Hin HQ]. cbn in HQ.
    destruct o as [p|]; [|discriminate]. exists p. auto.
  - intros [p [Hin HQ]]. exists (c, Some p). split; auto. apply filter_In. split; auto.
Qed.

(* a child appears among the related documents of P exactly when its own relation field points to P *)
Theorem membership ls p c : In c (children ls p) <-> In (c, Some p) ls.
Proof.
  change (children ls p) with (children_with (fun q => Nat.eqb q p) ls). rewrite children_with_spec. split.
  - intros [q [Hin E]]. apply Nat.eqb_eq in E. now subst.
  - intros Hin. exists p. split; [exact Hin | apply Nat.eqb_refl].
Qed.

Lemma pairs_from_parent_spec ps ls p c : In (p, c) (pairs_from_parent ps ls) <-> In p ps /\ In c (children ls p).
Proof.
  unfold pairs_from_parent. rewrite in_flat_map. split.
  - intros [q [Hq Hin]]. apply in_map_iff in Hin. destruct Hin as [c' [E Hc]]. inversion E; subst. auto.
  - intros [Hp Hc]. exists p. split; auto. now apply (in_map (fun c => (p, c))).
Qed.

Lemma pairs_from_child_spec ls p c : In (p, c) (pairs_from_child ls) <-> In (c, Some p) ls.
Proof.
  unfold pairs_from_child. rewrite in_flat_map. split.
  - intros [[c' o] [Hin Hx]]. destruct o as [q|]; [|destruct Hx]. destruct Hx as [E|[]]. inversion E; subst. exact Hin.
  - intros Hin. exists (c, Some p). split; auto. left; reflexivity.
Qed.

Theorem direction_independent ps ls p c :
  In (p, c) (pairs_from_parent ps ls) <-> (In p ps /\ In (p, c) (pairs_from_child ls)).
Proof. rewrite pairs_from_parent_spec, pairs_from_child_spec, membership. reflexivity. Qed.

Theorem parents_with_spec P ps ls p :
  In p (parents_with P ps ls) <-> In p ps /\ exists c, In (p, c) (pairs_from_child ls) /\ P c = true.
Proof.
  unfold parents_with. rewrite filter_In, existsb_exists. apply and_iff_compat_l.
  split; intros [c [Hc HP]]; exists c; split; auto.
  - now apply pairs_from_child_spec, membership.
  - now apply membership, pairs_from_child_spec.
Qed.

(* one-to-one: the link value behaves as a unique index on the primary side *)
Definition one_to_one_ok (s : list (nat * val)) : Prop := unique_ok s.
Theorem one_to_one_unique ops : one_to_one_ok (fold_left (fun s o => fst (ustep s o)) ops []).
Proof. apply unique_enforced. Qed.
