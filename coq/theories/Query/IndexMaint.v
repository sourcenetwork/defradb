(* Index maintenance: the documents of a collection and the entries of one secondary index on a scalar field, under
   every write path that touches them (create, update, delete by id, delete by filter, index creation after the
   data, index removal). In the implementation the two are written by separate code (collection.go / collection_delete.go
   write the document, index.go Save / Update / Delete and collection_index.go indexExistingDocs write the entries); the
   model keeps them as two lists updated by separate functions and the theorems say they never drift apart:
   every live document has exactly one entry carrying its current value, there are no other entries, and therefore a
   lookup through the index returns what the scan returns. *)
From Coq Require Import List Arith Bool.
From Verif Require Import ListFacts.
Import ListNotations.

Section Maint.
Variable V : Type.

Record ist := mkI { live : list (nat * V); entries : list (nat * V); indexed : bool }.

Definition has (id : nat) (l : list (nat * V)) : bool := existsb (fun e => Nat.eqb (fst e) id) l.
Definition drop (id : nat) (l : list (nat * V)) : list (nat * V) := filter (fun e => negb (Nat.eqb (fst e) id)) l.
Definition keep_not (P : V -> bool) (l : list (nat * V)) : list (nat * V) := filter (fun e => negb (P (snd e))) l.

Inductive mop :=
| MCreate (id : nat) (v : V)
| MUpdate (id : nat) (v : V)
| MDelete (id : nat)
| MDeleteWhere (P : V -> bool)
| MIndex
| MUnindex.

Definition step_docs (l : list (nat * V)) (o : mop) : list (nat * V) :=
  match o with
  | MCreate id v => if has id l then l else (id, v) :: l
  | MUpdate id v => if has id l then (id, v) :: drop id l else l
  | MDelete id => drop id l
  | MDeleteWhere P => keep_not P l
  | MIndex | MUnindex => l
  end.

(* index entries; [l] is the document list before the operation (index creation reads it, the write paths consult it
   to know whether the document exists) *)
Definition step_entries (on : bool) (l es : list (nat * V)) (o : mop) : list (nat * V) :=
  match o with
  | MCreate id v => if has id l then es else if on then (id, v) :: es else es
  | MUpdate id v => if has id l then (if on then (id, v) :: drop id es else es) else es
  | MDelete id => if on then drop id es else es
  | MDeleteWhere P => if on then keep_not P es else es
  | MIndex => if on then es else l
  | MUnindex => []
  end.

Definition mstep (s : ist) (o : mop) : ist :=
  mkI (step_docs (live s) o) (step_entries (indexed s) (live s) (entries s) o)
      (match o with MIndex => true | MUnindex => false | _ => indexed s end).

Definition init : ist := mkI [] [] false.
Definition run (ops : list mop) : ist := fold_left mstep ops init.

Definition Inv (s : ist) : Prop :=
  NoDup (map fst (live s)) /\ entries s = (if indexed s then live s else []).

Lemma has_In id l : has id l = true <-> In id (map fst l).
Proof.
  unfold has. rewrite existsb_exists, in_map_iff.
  split; intros [e [H1 H2]]; exists e; [apply Nat.eqb_eq in H2 | apply Nat.eqb_eq in H1]; auto.
Qed.

Lemma drop_notin id l : ~ In id (map fst (drop id l)).
Proof. apply filter_neqb_fst_notIn. Qed.

Lemma step_docs_nodup l o : NoDup (map fst l) -> NoDup (map fst (step_docs l o)).
Proof.
  intros ND. destruct o as [id v|id v|id|P| |]; cbn [step_docs].
  - destruct (has id l) eqn:H; [exact ND|]. cbn [map fst]. constructor; [|exact ND].
    intros Hin. apply has_In in Hin. congruence.
  - destruct (has id l); [|exact ND]. cbn [map fst]. constructor; [apply drop_notin | now apply NoDup_map_filter].
  - now apply NoDup_map_filter.
  - now apply NoDup_map_filter.
  - exact ND.
  - exact ND.
Qed.

Lemma step_entries_live s o : entries s = (if indexed s then live s else []) ->
  entries (mstep s o) = (if indexed (mstep s o) then live (mstep s o) else []).
Proof.
  intros E. unfold mstep. cbn [live entries indexed]. rewrite E.
  (* whichever operation, index on or off, document present or not: both sides compute to the same list *)
  destruct o as [id v|id v|id|P| |], (indexed s); cbn [step_docs step_entries]; try reflexivity;
    destruct (has id (live s)); reflexivity.
Qed.

Lemma step_inv s o : Inv s -> Inv (mstep s o).
Proof. intros [ND E]. split; [exact (step_docs_nodup _ o ND) | exact (step_entries_live s o E)]. Qed.

Theorem maintained ops : Inv (run ops).
Proof. apply (fold_left_inv Inv mstep step_inv). split; [constructor | reflexivity]. Qed.

Definition lookup_index (P : V -> bool) (s : ist) : list nat := map fst (filter (fun e => P (snd e)) (entries s)).
Definition lookup_scan (P : V -> bool) (s : ist) : list nat := map fst (filter (fun e => P (snd e)) (live s)).

Theorem index_lookup_is_scan ops P : indexed (run ops) = true -> lookup_index P (run ops) = lookup_scan P (run ops).
Proof.
  intros H. destruct (maintained ops) as [_ E]. unfold lookup_index, lookup_scan. rewrite E, H. reflexivity.
Qed.

Theorem entries_are_the_live_documents ops :
  indexed (run ops) = true -> map fst (entries (run ops)) = map fst (live (run ops)) /\ NoDup (map fst (entries (run ops))).
Proof.
  intros H. destruct (maintained ops) as [ND E]. rewrite E, H. auto.
Qed.

(* a deleted document leaves no entry behind: its value can be taken again under a unique index *)
Theorem deleted_leaves_no_entry ops id : ~ In id (map fst (entries (mstep (run ops) (MDelete id)))).
Proof.
  cbn [mstep entries step_entries]. destruct (maintained ops) as [_ ->].
  destruct (indexed (run ops)); [apply drop_notin | intros []].
Qed.

Theorem deleted_by_filter_leaves_no_entry ops P e :
  In e (entries (mstep (run ops) (MDeleteWhere P))) -> P (snd e) = false.
Proof.
  cbn [mstep entries step_entries]. destruct (maintained ops) as [_ ->].
  destruct (indexed (run ops)); [|intros []].
  unfold keep_not. intros H. apply filter_In in H. destruct H as [_ H]. now apply negb_true_iff in H.
Qed.
End Maint.

(* forgetting the entries on one write path breaks the invariant: the model of the pinned DeleteWithFilter *)
Example forgotten_path_refuted :
  let s := run nat [MCreate nat 1 7; MIndex nat] in
  let bad := mkI nat (step_docs nat (live nat s) (MDeleteWhere nat (fun v => Nat.eqb v 7))) (entries nat s) true in
  ~ Inv nat bad.
Proof. cbn. intros [_ E]. discriminate. Qed.

Example maint_nonvacuous :
  let s := run nat [MCreate nat 1 7; MCreate nat 2 8; MIndex nat; MUpdate nat 1 9; MDelete nat 2; MCreate nat 3 8] in
  indexed nat s = true /\ lookup_index nat (fun v => Nat.eqb v 8) s = [3] /\ map fst (entries nat s) = [3; 1].
Proof. vm_compute. repeat split. Qed.

(* building the index from the documents its creator may read (the pinned indexExistingDocs on a collection under
   access control) breaks it as well: the other documents exist and have no entry *)
Example index_built_from_callers_view_refuted :
  let s := run nat [MCreate nat 1 7; MCreate nat 2 8] in
  let may_read := fun id => Nat.eqb id 1 in
  let bad := mkI nat (live nat s) (filter (fun e => may_read (fst e)) (live nat s)) true in
  ~ Inv nat bad /\ lookup_index nat (fun v => Nat.eqb v 8) bad <> lookup_scan nat (fun v => Nat.eqb v 8) bad.
Proof. cbn. split; [intros [_ E]; discriminate | discriminate]. Qed.
