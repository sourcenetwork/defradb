(* Document access control: every source of documents in a plan applies the read check between fetch and filter
   (permissionedFetcher; and, after the F9 repair, dagScanNode).  Non-interference: for every plan built from checked
   sources a requester sees exactly what it would see if the unreadable documents did not exist. *)
From Coq Require Import List ZArith Bool.
From Verif Require Import ListFacts Sem Index.
Import ListNotations.

Definition db := list (nat * doc).
Definition perm := nat -> bool.                       (* may the requester read document id? *)

Inductive plan :=
| PScan                                               (* primary scan *)
| PIndex (f : nat) (c : cond)                         (* index scan: candidates of a condition *)
| PFilter (g : qfilter) (p : plan)
| POrder (ks : list okey) (p : plan)
| PSlice (o l : nat) (p : plan).

Definition readable (can : perm) (d : db) : db := filter (fun x => can (fst x)) d.

(* checked sources: the permission check sits between the fetch and everything else *)
Fixpoint eval (can : perm) (d : db) (p : plan) : db :=
  match p with
  | PScan => readable can d
  | PIndex f c => readable can (filter (fun x => cand_cond c (field (snd x) f)) d)
  | PFilter g q => filter (fun x => eval_filter g (snd x)) (eval can d q)
  | POrder ks q => order_coded ks (eval can d q)
  | PSlice o l q => slice o l (eval can d q)
  end.

Definition everyone : perm := fun _ => true.

Lemma readable_everyone d : readable everyone d = d.
Proof. unfold readable, everyone. induction d as [|x d IH]; cbn; [reflexivity|]. rewrite IH. reflexivity. Qed.

(* what the requester gets from the real database is what anyone would get from the database without the
   documents the requester may not read: rows, order, slices - hence also every aggregate computed from them *)
Theorem noninterference can d p : eval can d p = eval everyone (readable can d) p.
Proof.
  induction p as [|f c|g q IH|ks q IH|o l q IH]; cbn [eval].
  - rewrite readable_everyone. reflexivity.
  - rewrite readable_everyone. unfold readable. apply filter_comm.
  - rewrite IH. reflexivity.
  - rewrite IH. reflexivity.
  - rewrite IH. reflexivity.
Qed.

Corollary indistinguishable can d1 d2 p : readable can d1 = readable can d2 -> eval can d1 p = eval can d2 p.
Proof. intros H. rewrite (noninterference can d1), (noninterference can d2), H. reflexivity. Qed.

(* an unchecked source leaks: the commits query before the F9 repair *)
Definition eval_unchecked (d : db) : db := d.
Example unchecked_source_refuted :
  let d := [(0%nat, [VInt 1]); (1%nat, [VInt 2])] in
  let can := fun i => Nat.eqb i 0 in
  map fst (eval_unchecked d) = [0%nat; 1%nat] /\ map fst (eval can d PScan) = [0%nat].
Proof. vm_compute. split; reflexivity. Qed.

Definition rels := list (nat * nat).                  (* (actor, document): actor holds a relation that grants the permission *)
Definition holds (r : rels) (a i : nat) : bool := existsb (fun e => Nat.eqb (fst e) a && Nat.eqb (snd e) i) r.

Definition guarded_update (r : rels) (a i : nat) (f : doc -> doc) (d : db) : db :=
  if holds r a i then map (fun x => if Nat.eqb (fst x) i then (fst x, f (snd x)) else x) d else d.
Definition guarded_delete (r : rels) (a i : nat) (d : db) : db :=
  if holds r a i then filter (fun x => negb (Nat.eqb (fst x) i)) d else d.

Theorem writes_guarded r a i f d : holds r a i = false ->
  guarded_update r a i f d = d /\ guarded_delete r a i d = d.
Proof. intros H. unfold guarded_update, guarded_delete. rewrite H. split; reflexivity. Qed.

Definition grant (r : rels) (a i : nat) : rels := (a, i) :: r.
Definition revoke (r : rels) (a i : nat) : rels := filter (fun e => negb (Nat.eqb (fst e) a && Nat.eqb (snd e) i)) r.

Lemma holds_In r a i : holds r a i = true <-> In (a, i) r.
Proof. apply existsb_eqb_pair_In. Qed.

Lemma revoke_In r a i b j : In (b, j) (revoke r a i) <-> In (b, j) r /\ (b, j) <> (a, i).
Proof.
  unfold revoke. rewrite filter_In. cbn [fst snd]. apply and_iff_compat_l.
  destruct (Nat.eqb_spec b a) as [->|], (Nat.eqb_spec j i) as [->|]; cbn; split; congruence.
Qed.

Theorem grant_revoke_immediate r a i :
  holds (grant r a i) a i = true /\ holds (revoke r a i) a i = false /\
  (forall b j, (b, j) <> (a, i) -> holds (grant r a i) b j = holds r b j /\ holds (revoke r a i) b j = holds r b j).
Proof.
  split; [|split].
  - apply holds_In. left; reflexivity.
  - apply not_true_iff_false. intros H. apply holds_In, revoke_In in H. now apply (proj2 H).
  - intros b j Hne. split; apply eq_iff_eq_true; rewrite !holds_In.
    + split; [intros [E|H]; [congruence | exact H] | now right].
    + rewrite revoke_In. split; [intros [H _]; exact H | auto].
Qed.
