(* Secondary indexes: an index-backed plan fetches the documents whose indexed value passes the iterator range /
   matcher derived from ONE conjunct of the filter (indexer_iterators.go, indexer_matchers.go), then re-applies the
   whole filter (filteredFetcher).  Transparency: the result is the scan result.  Unique indexes: insert/update are
   rejected exactly when they would leave two live documents sharing a non-null value. *)
From Coq Require Import List ZArith Bool Permutation.
From Verif Require Import ListFacts Sem SemProofs.
Import ListNotations.
Local Open Scope Z_scope.

(* which index entries the iterator + matcher let through, by operator (value level; the key level is C17) *)
Definition cand_cond (c : cond) (v : val) : bool :=
  match c with
  | CCmp op cv =>
      if is_null cv then
        match op with
        | OEq => is_null v                       (* nilMatcher{matchNil: true} *)
        | ONe | OGt => negb (is_null v)          (* nilMatcher{matchNil: false} *)
        | _ => true                              (* _ge/_le/_lt null: no usable range, every entry is a candidate *)
        end
      else
        match op with
        | OEq => veq cv v
        | ONe => negb (veq cv v)                 (* comparing matcher OR nil *)
        | OGt => match vcmp v cv with Gt => true | _ => false end
        | OGe => match vcmp v cv with Lt => false | _ => true end
        | OLt => match vcmp v cv with Lt => true | _ => false end        (* null sorts first: inside the range *)
        | OLe => match vcmp v cv with Gt => false | _ => true end
        end
  | CIn vs => existsb (fun x => veq x v) vs
  | CNin vs => negb (existsb (fun x => veq x v) vs)
  | CLike pt neg ci =>
      match v with
      | VNull => neg                                                        (* repaired F24 *)
      | VStr s => let m := like_str pt (if ci then map lower s else s) in if neg then negb m else m
      | _ => neg                                                            (* not reachable on a String field *)
      end
  end.

Theorem cand_complete c v : eval_cond c v = true -> cand_cond c v = true.
Proof.
  destruct c as [op cv|vs|vs|pt neg ci]; cbn [eval_cond cand_cond]; auto.
  - destruct (is_null cv) eqn:En.
    + destruct cv; try discriminate. destruct op, v; cbn; auto.
    + destruct op; cbn [eval_cmp]; rewrite ?En; auto.
      (* on two numbers vcmp is Z.compare, and y >? x, y >=? x, y <? x, y <=? x are by definition the
         matches on y ?= x that cand_cond spells out *)
      all: destruct (num cv) as [x|] eqn:Ec, (num v) as [y|] eqn:Ev; try discriminate.
      all: rewrite (num_vcmp v cv y x Ev Ec); exact (fun H => H).
  - destruct v; auto; destruct neg; auto.
Qed.

Theorem refilter_superset {I} (docs cands : list (I * doc)) g :
  NoDup docs -> NoDup cands -> (forall x, In x cands -> In x docs) ->
  (forall x, In x docs -> eval_filter g (snd x) = true -> In x cands) ->
  Permutation (sel g cands) (sel g docs).
Proof.
  intros Hd Hc Hsub Hcompl. unfold sel. apply NoDup_Permutation.
  - apply NoDup_filter; assumption.
  - apply NoDup_filter; assumption.
  - intros x. rewrite !filter_In. split; intros [H1 H2]; auto.
Qed.

(* an index on field f used for the conjunct (f, c) of a conjunctive filter *)
Definition index_plan {I} (f : nat) (c : cond) (rest : list qfilter) (docs : list (I * doc)) : list (I * doc) :=
  sel (FAnd (FField f c :: rest)) (filter (fun x => cand_cond c (field (snd x) f)) docs).

(* in the model the candidates keep the order of the scan, so the plan returns the very list the scan returns *)
Lemma index_plan_scan {I} f c rest (docs : list (I * doc)) : index_plan f c rest docs = sel (FAnd (FField f c :: rest)) docs.
Proof.
  apply filter_implied. intros x Hg. apply cand_complete.
  rewrite eval_and in Hg. exact (proj1 (andb_prop _ _ Hg)).
Qed.

Theorem index_transparent {I} f c rest (docs : list (I * doc)) : NoDup docs ->
  Permutation (index_plan f c rest docs) (sel (FAnd (FField f c :: rest)) docs).
Proof. intros _. rewrite index_plan_scan. apply Permutation_refl. Qed.

(* a conjunct found under _or must not drive the index: documents matching only another branch are lost (F34) *)
Example index_under_or_refuted :
  let docs := [(0%nat, [VInt 1; VStr [97]]); (1%nat, [VInt 2; VStr [98]])] in
  let g := FOr [FField 0 (CCmp OEq (VInt 1)); FField 1 (CCmp OEq (VStr [98]))] in
  map fst (sel g (filter (fun x => cand_cond (CCmp OEq (VInt 1)) (field (snd x) 0)) docs)) = [0%nat] /\
  map fst (sel g docs) = [0%nat; 1%nat].
Proof. vm_compute. split; reflexivity. Qed.

Definition ustate := list (nat * val).           (* live documents: id, indexed value *)
Definition clash (s : ustate) (id : nat) (v : val) : bool :=
  negb (is_null v) && existsb (fun e => negb (Nat.eqb (fst e) id) && veq (snd e) v) s.

Inductive uop := UPut (id : nat) (v : val) | UDel (id : nat).   (* create or update / delete *)

Definition ustep (s : ustate) (o : uop) : ustate * bool :=
  match o with
  | UPut id v => if clash s id v then (s, false)
                 else ((id, v) :: filter (fun e => negb (Nat.eqb (fst e) id)) s, true)
  | UDel id => (filter (fun e => negb (Nat.eqb (fst e) id)) s, true)
  end.

Definition unique_ok (s : ustate) : Prop :=
  forall i j v w, In (i, v) s -> In (j, w) s -> i <> j -> is_null v = false -> veq v w = false.

Lemma clash_spec s id v :
  clash s id v = true <-> is_null v = false /\ exists j w, In (j, w) s /\ j <> id /\ veq w v = true.
Proof.
  unfold clash. split.
  - intros [Hn [[j w] [Hin [Hne Hv]%andb_prop]]%existsb_exists]%andb_prop.
    apply negb_true_iff in Hn. apply negb_true_iff, Nat.eqb_neq in Hne. split; [exact Hn|]. exists j, w. auto.
  - intros [Hn [j [w [Hin [Hne Hv]]]]]. rewrite Hn. apply existsb_exists. exists (j, w). split; [exact Hin|].
    cbn [fst snd]. apply Nat.eqb_neq in Hne. now rewrite Hne.
Qed.

Lemma clash_false s id v j w :
  clash s id v = false -> In (j, w) s -> j <> id -> is_null v = false -> veq w v = false.
Proof.
  intros E Hin Hne Hn. apply not_true_is_false. intros Hv. apply not_true_iff_false in E. apply E, clash_spec.
  split; [exact Hn|]. exists j, w. auto.
Qed.

Lemma unique_ok_filter f s : unique_ok s -> unique_ok (filter f s).
Proof. intros H i j a b Hi Hj. apply filter_In in Hi, Hj. exact (H i j a b (proj1 Hi) (proj1 Hj)). Qed.

Lemma unique_ok_cons id v s : unique_ok s ->
  (forall j w, In (j, w) s -> j <> id -> is_null v = false -> veq w v = false) -> unique_ok ((id, v) :: s).
Proof.
  intros H N i j a b [Hi|Hi] [Hj|Hj] Hne Hn.
  - congruence.
  - inversion Hi; subst. rewrite veq_sym. exact (N j b Hj (not_eq_sym Hne) Hn).
  - (* from the side of an old entry: were its non-null value equal to v, v would not be null either *)
    inversion Hj; subst. apply not_true_is_false. intros Ev.
    rewrite (N i a Hi Hne (veq_nonnull a b Ev Hn)) in Ev. discriminate.
  - exact (H i j a b Hi Hj Hne Hn).
Qed.

Lemma ustep_ok s o : unique_ok s -> unique_ok (fst (ustep s o)).
Proof.
  intros H. destruct o as [id v|id]; cbn [ustep]; [|now apply unique_ok_filter].
  destruct (clash s id v) eqn:E; cbn [fst]; [exact H|].
  apply unique_ok_cons; [now apply unique_ok_filter|].
  intros j w Hin. apply filter_In in Hin. exact (clash_false s id v j w E (proj1 Hin)).
Qed.

(* after any history of local writes no two live documents share a non-null indexed value *)
Theorem unique_enforced ops : unique_ok (fold_left (fun s o => fst (ustep s o)) ops []).
Proof. apply (fold_left_inv unique_ok); [intros s o; apply ustep_ok | intros i j v w []]. Qed.

(* and a write is rejected exactly when it would create such a pair *)
Theorem unique_rejects_exactly s id v :
  snd (ustep s (UPut id v)) = false <->
  (is_null v = false /\ exists j w, In (j, w) s /\ j <> id /\ veq w v = true).
Proof. rewrite <- clash_spec. cbn [ustep]. destruct (clash s id v); cbn [snd]; split; congruence. Qed.
