(* Time-travel reads (internal/db/fetcher/versioned.go after the F4 repair): seekTo queues the commit and all of
   its ancestors, each once, in height order, and merges each with the field blocks it links, into an empty
   transient store.  That is exactly a delivery of the commit to an empty replica. *)
From Coq Require Import List.
From Verif Require Import Model Sweep Order Conv Exact.
Import ListNotations.
Local Open Scope nat_scope.

Definition versioned (u : universe) (c : nat) : rstate := deliver u rinit c.

Lemma anc_merged_init u b : ~ Sweep.Merged (parents u) [] b.
Proof. intros [h [[] _]]. Qed.

(* the time-travel state is the replay of exactly the commit and its ancestors, each once *)
Theorem versioned_is_replay u c : wfb u = true ->
  RInv u (versioned u c) /\ (forall b, In b (r_merged (versioned u c)) <-> Sweep.Anc (parents u) c b).
Proof.
  intros H. destruct (wfb_sound u H) as [H1 H2]. unfold versioned.
  destruct (deliver_inv u H1 H2 rinit c (rinv_init u)) as [HI Hm]. split; auto.
  intros b. rewrite Hm. cbn [rinit r_merged In]. tauto.
Qed.

(* hence it equals the state of ANY replica whose merged commits are exactly those ancestors: the writer right
   after a local commit on a linear history, or any replica whose single head is the commit *)
Theorem versioned_eq_replica u c ops : wfb u = true ->
  (forall b, In b (r_merged (reach u ops)) <-> Sweep.Anc (parents u) c b) ->
  vs_eq (r_vs (versioned u c)) (r_vs (reach u ops)).
Proof.
  intros H Hset. destruct (versioned_is_replay u c H) as [HI Hm].
  apply (same_merged_same_state u); auto using reach_inv.
  intros b. rewrite Hm, Hset. tauto.
Qed.

Theorem versioned_at_single_head u c ops : wfb u = true ->
  (forall b, In b (r_heads (reach u ops)) <-> b = c) ->
  vs_eq (r_vs (versioned u c)) (r_vs (reach u ops)).
Proof.
  intros H Hh. apply versioned_eq_replica; auto. destruct (wfb_sound u H) as [H1 H2].
  pose proof (reach_inv u ops H) as HI. intros b.
  rewrite <- (merged_iff u H1 (reach u ops) HI b). unfold Sweep.Merged. split.
  - intros [h [Hin Ha]]. apply Hh in Hin. subst. exact Ha.
  - intros Ha. exists c. split; auto. apply Hh. reflexivity.
Qed.

Theorem versioned_counter u c f : wfb u = true ->
  get_ctr f (v_ctrs (r_vs (versioned u c))) = sum_ctr u f (blocks_of u (r_merged (versioned u c))) /\
  NoDup (r_merged (versioned u c)) /\
  (forall b, In b (r_merged (versioned u c)) <-> Sweep.Anc (parents u) c b).
Proof.
  intros H. destruct (versioned_is_replay u c H) as [HI Hm].
  split; [apply rinv_counter, HI|split; [apply (ri_nodup _ _ HI)|exact Hm]].
Qed.
