(* The level sweep of the merge walk is exact: it returns precisely the blocks reachable from the incoming
   block that are not ancestors of a current head - each once, in ascending height. *)
From Coq Require Import List PeanoNat Lia Bool Sorted.
From Verif Require Import ListFacts Model.
Import ListNotations.
Local Open Scope nat_scope.

(* Universe of composite blocks: cid = nat; each block has a height and parents *)
Section Sweep.
Variable height : nat -> nat.
Variable parents : nat -> list nat.
Hypothesis wf : forall b p, In p (parents b) -> height p < height b.
Hypothesis hpos : forall b, 1 <= height b.

Notation at_level := (Model.at_level height).
Notation below_level := (Model.below_level height).
Notation level_step := (Model.level_step height parents).
Notation sweep := (Model.sweep height parents).

Inductive Anc : nat -> nat -> Prop :=   (* Anc b a : a is an ancestor-or-self of b *)
| anc_refl b : Anc b b
| anc_step b p a : In p (parents b) -> Anc p a -> Anc b a.

Lemma anc_height b a : Anc b a -> height a <= height b.
Proof. induction 1; [lia|]. apply wf in H. lia. Qed.

Lemma anc_trans a b c : Anc a b -> Anc b c -> Anc a c.
Proof. induction 1; auto. intros. econstructor; eauto. Qed.

Lemma anc_parent r x p : Anc r x -> In p (parents x) -> Anc r p.
Proof. intros Hx Hp. apply (anc_trans _ _ _ Hx). econstructor; [exact Hp|constructor]. Qed.

Lemma anc_path r b : Anc r b -> b = r \/ exists x, Anc r x /\ In b (parents x).
Proof.
  induction 1 as [|r p b Hp _ [->|[x [Hx Hb]]]]; auto; right.
  - exists r. split; [constructor|exact Hp].
  - exists x. split; [econstructor; eauto|exact Hb].
Qed.

Lemma at_level_In h l b : In b (at_level h l) <-> In b l /\ height b = h.
Proof. unfold Model.at_level. now rewrite filter_In, Nat.eqb_eq. Qed.

Lemma below_level_In h l b : In b (below_level h l) <-> In b l /\ height b <> h.
Proof. unfold Model.below_level. now rewrite filter_In, negb_true_iff, Nat.eqb_neq. Qed.

(* For a set P of blocks with roots R, a list F is complete below level h when it holds every root and every parent
   of a P-block above h that is at height <= h itself.  The walk keeps two such lists: the incoming side for the
   unmerged ancestors of the incoming block, the merged side for the ancestors of the heads. *)
Definition complete (R P : nat -> Prop) (h : nat) (F : list nat) : Prop :=
  forall b, height b <= h -> (R b \/ exists x, P x /\ h < height x /\ In b (parents x)) -> In b F.

Lemma complete_level (R P : nat -> Prop) h F b : (forall b, P b -> R b \/ exists x, P x /\ In b (parents x)) ->
  complete R P h F -> P b -> height b = h -> In b (at_level h F).
Proof.
  intros path Hc Hp Hb. apply at_level_In. split; [|exact Hb].
  apply Hc; [lia|]. destruct (path b Hp) as [Hr|[x [Hx Hbx]]]; [left; exact Hr|right].
  exists x. apply wf in Hbx as Hlt. repeat split; auto. lia.
Qed.

Lemma step_In h F Fh b : In b (below_level (S h) F ++ flat_map parents Fh) <->
  In b F /\ height b <> S h \/ exists x, In x Fh /\ In b (parents x).
Proof. now rewrite in_app_iff, in_flat_map, below_level_In. Qed.

Lemma step_bound (P : nat -> Prop) h F Fh : (forall b, In b Fh <-> P b /\ height b = S h) ->
  (forall b, In b F -> height b <= S h) -> forall b, In b (below_level (S h) F ++ flat_map parents Fh) -> height b <= h.
Proof.
  intros HFh HF b Hb. apply step_In in Hb as [[Hb Hne]|[x [Hx Hp]]]; [apply HF in Hb|apply HFh in Hx; apply wf in Hp]; lia.
Qed.

Lemma complete_step (R P : nat -> Prop) h F Fh : (forall b, In b Fh <-> P b /\ height b = S h) ->
  complete R P (S h) F -> complete R P h (below_level (S h) F ++ flat_map parents Fh).
Proof.
  intros HFh Hc b Hb Hr. apply step_In. destruct Hr as [Hr|[x [Hx [Hlt Hp]]]]; [left; split; [apply Hc; auto|lia]|].
  destruct (Nat.eq_dec (height x) (S h)) as [Ex|Ex]; [right; exists x; split; [apply HFh; auto|exact Hp]|].
  left. split; [|lia]. apply Hc; [lia|]. right. exists x. repeat split; auto. lia.
Qed.

Variable heads : list nat.
Definition Merged (b : nat) : Prop := exists h, In h heads /\ Anc h b.

Lemma merged_down b p : Merged b -> In p (parents b) -> Merged p.
Proof. intros [h [Hh Ha]] Hp. exists h; split; auto. eapply anc_parent; eauto. Qed.

Lemma merged_path b : Merged b -> In b heads \/ exists x, Merged x /\ In b (parents x).
Proof.
  intros [h [Hh Ha]]. destruct (anc_path _ _ Ha) as [->|[x [Hx Hp]]]; auto.
  right. exists x. split; [exists h|]; auto.
Qed.

Variable c : nat.  (* incoming *)
Definition Unm (b : nat) : Prop := Anc c b /\ ~ Merged b.

Lemma unm_path b : Unm b -> b = c \/ exists x, Unm x /\ In b (parents x).
Proof.
  intros [Ha Hn]. destruct (anc_path _ _ Ha) as [->|[x [Hx Hp]]]; auto.
  right. exists x. repeat split; auto. intros Hm. apply Hn. eapply merged_down; eauto.
Qed.

(* Invariant before processing level h (levels > h done); the two _compl fields are [complete] spelt out,
   with roots {c} and set Unm for I, roots heads and set Merged for M *)
Record Inv (h : nat) (I M out : list nat) : Prop := {
  inv_I_h : forall b, In b I -> height b <= h;
  inv_M_h : forall b, In b M -> height b <= h;
  inv_I_sound : forall b, In b I -> Anc c b /\ (b = c \/ exists x, Unm x /\ In b (parents x));
  inv_I_compl : forall b, height b <= h -> (b = c \/ exists x, Unm x /\ h < height x /\ In b (parents x)) -> In b I;
  inv_M_sound : forall b, In b M -> Merged b;
  inv_M_compl : forall b, height b <= h -> (In b heads \/ exists x, Merged x /\ h < height x /\ In b (parents x)) -> In b M;
  inv_out : forall b, In b out <-> (Unm b /\ h < height b);
}.

Lemma level_merged h I M out : Inv h I M out -> forall b, In b (at_level h M) <-> Merged b /\ height b = h.
Proof.
  intros HI b. split.
  - intros Hin. apply at_level_In in Hin as [Hin Hh]. split; [apply (inv_M_sound _ _ _ _ HI), Hin|exact Hh].
  - intros [Hm Hh]. exact (complete_level _ _ _ _ _ merged_path (inv_M_compl _ _ _ _ HI) Hm Hh).
Qed.

Lemma merged_at_level h I M out b : Inv h I M out -> height b = h -> (Merged b <-> In b (at_level h M)).
Proof.
  intros HI Hb. rewrite (level_merged _ _ _ _ HI). tauto.
Qed.

Lemma level_unmerged h I M out : Inv h I M out -> forall b,
  In b (nodup Nat.eq_dec (filter (fun b => negb (mem b (at_level h M))) (at_level h I))) <-> Unm b /\ height b = h.
Proof.
  intros HI b. pose proof (level_merged _ _ _ _ HI b) as HMh. split.
  - intros Hb. apply nodup_In, filter_In in Hb as [Hin Hnm]. apply at_level_In in Hin as [Hin Hh].
    apply negb_true_iff, existsb_eqb_notIn in Hnm.
    split; [split|exact Hh]; [apply (inv_I_sound _ _ _ _ HI), Hin|]. intros Hm. apply Hnm, HMh. auto.
  - intros [Hu Hh]. apply nodup_In, filter_In.
    split; [exact (complete_level _ _ _ _ _ unm_path (inv_I_compl _ _ _ _ HI) Hu Hh)|].
    apply negb_true_iff, existsb_eqb_notIn. intros Hm. apply HMh in Hm. apply Hu, Hm.
Qed.

Lemma level_inv h I M out :
  Inv (S h) I M out ->
  let '(Ih, I', M') := level_step (S h) I M in Inv h I' M' (Ih ++ out).
Proof.
  intros HI. pose proof (level_merged _ _ _ _ HI) as HMh. pose proof (level_unmerged _ _ _ _ HI) as HIh.
  destruct HI as [I_h M_h I_s I_c M_s M_c Ho]. unfold Model.level_step. constructor.
  - exact (step_bound _ _ _ _ HIh I_h).
  - exact (step_bound _ _ _ _ HMh M_h).
  - intros b Hb. apply step_In in Hb as [[Hb _]|[x [Hx Hp]]]; [apply I_s, Hb|].
    apply HIh in Hx as [Hx _]. split; [apply (anc_parent _ x), Hp; apply Hx|right; exists x; auto].
  - exact (complete_step _ _ _ _ _ HIh I_c).
  - intros b Hb. apply step_In in Hb as [[Hb _]|[x [Hx Hp]]]; [apply M_s, Hb|].
    apply HMh in Hx as [Hx _]. exact (merged_down _ _ Hx Hp).
  - exact (complete_step _ _ _ _ _ HMh M_c).
  - intros b. rewrite in_app_iff, HIh, Ho. split; [intros [[Hu Hh]|[Hu Hh]]; split; auto; lia|].
    intros [Hu Hh]. destruct (Nat.eq_dec (height b) (S h)); [left|right]; split; auto; lia.
Qed.

Theorem sweep_exact h I M out : Inv h I M out -> forall b, In b (sweep h I M out) <-> Unm b.
Proof.
  revert I M out. induction h as [|h IH]; intros I M out HI b.
  - simpl. rewrite (inv_out _ _ _ _ HI). split; [tauto|]. intros Hu; split; auto; pose proof (hpos b); lia.
  - cbn [Model.sweep]. pose proof (level_inv h I M out HI) as HL. destruct (level_step (S h) I M) as [[Ih I'] M']. apply IH; auto.
Qed.

Lemma inv_init H : (forall b, In b heads -> height b <= H) -> height c <= H -> Inv H [c] heads [].
Proof.
  intros Hh Hc. constructor.
  - intros b [<-|[]]; auto.
  - auto.
  - intros b [<-|[]]. split; [constructor|auto].
  - intros b Hb [->|[x [[Hx _] [Hlt _]]]]; [left; auto|]. apply anc_height in Hx. lia.
  - intros b Hb. exists b; split; auto. constructor.
  - intros b Hb [Hin|[x [[hd [Hhd Ha]] [Hlt _]]]]; auto. apply anc_height in Ha. specialize (Hh _ Hhd). lia.
  - intros b. simpl. split; [tauto|]. intros [[Ha _] Hlt]. apply anc_height in Ha. lia.
Qed.

Theorem sweep_init H : (forall b, In b heads -> height b <= H) -> height c <= H ->
  forall b, In b (sweep H [c] heads []) <-> Unm b.
Proof. intros Hh Hc. apply sweep_exact. apply inv_init; assumption. Qed.

Definition hle (a b : nat) : Prop := height a <= height b.

Lemma ss_level_app k l out : (forall x, In x l -> height x = k) -> (forall y, In y out -> k <= height y) ->
  StronglySorted hle out -> StronglySorted hle (l ++ out).
Proof.
  intros Hl Ho Hs. induction l as [|a l IH]; cbn [app]; auto.
  constructor; [apply IH; intros x Hx; apply Hl; right; exact Hx|].
  apply Forall_forall. intros y Hy. unfold hle. rewrite (Hl a) by (left; reflexivity).
  apply in_app_iff in Hy as [Hy|Hy]; [rewrite (Hl y) by (right; exact Hy); auto | apply Ho, Hy].
Qed.

Lemma sweep_nodup_sorted_acc h : forall I M out, NoDup out -> StronglySorted hle out -> (forall b, In b out -> h < height b) ->
  NoDup (sweep h I M out) /\ StronglySorted hle (sweep h I M out).
Proof.
  induction h as [|h IH]; intros I M out Hnd Hss Hout; [auto|].
  cbn [Model.sweep Model.level_step]. set (Ih := nodup _ _).
  assert (Hh : forall b, In b Ih -> height b = S h).
  { intros b Hb. apply nodup_In, filter_In, proj1, filter_In, proj2 in Hb. apply Nat.eqb_eq, Hb. }
  apply IH.
  - apply NoDup_app_intro; [apply NoDup_nodup|exact Hnd|]. intros x Hx Hy. apply Hh in Hx. apply Hout in Hy. lia.
  - apply (ss_level_app (S h)); auto. intros y Hy. apply Hout in Hy. lia.
  - intros b Hb. apply in_app_iff in Hb as [Hb|Hb]; [apply Hh in Hb|apply Hout in Hb]; lia.
Qed.

Theorem sweep_nodup_sorted h I M : NoDup (sweep h I M []) /\ StronglySorted hle (sweep h I M []).
Proof. apply sweep_nodup_sorted_acc; [constructor|constructor|intros b []]. Qed.
End Sweep.
