(* Registers as a max-semilattice on (priority, bytes); value states up to observation; the order in which
   deltas are applied does not matter. *)
From Coq Require Import List ZArith Lia Permutation.
From Verif Require Import ListFacts Bytes Model.
Import ListNotations.
Local Open Scope nat_scope.

Lemma bcmp_eq_iff a b : bcmp a b = Eq <-> a = b.
Proof. split; [apply bcmp_eq | intros ->; apply bcmp_refl]. Qed.

Definition rlt (a b : nat * list Z) : Prop :=
  fst a < fst b \/ (fst a = fst b /\ bcmp (snd a) (snd b) = Lt).

Definition rmax (a b : nat * list Z) : nat * list Z :=
  if lww_wins a (fst b) (snd b) then b else a.

Lemma lww_wins_spec a h v : lww_wins a h v = true <-> rlt a (h, v).
Proof.
  unfold lww_wins, rlt. cbn [fst snd].
  destruct (Nat.ltb_spec h (fst a)) as [H1|H1]; [split; [discriminate | intros [H|[H _]]; lia]|].
  destruct (Nat.eqb_spec h (fst a)) as [->|H2]; [|split; [left; lia|reflexivity]].
  destruct (bcmp (snd a) v); split; try discriminate; auto; intros [H|[_ H]]; try lia; discriminate.
Qed.

Lemma rlt_irrefl a : ~ rlt a a.
Proof. unfold rlt. rewrite bcmp_refl. intros [H|[_ H]]; [lia|discriminate]. Qed.

Lemma rlt_trans a b c : rlt a b -> rlt b c -> rlt a c.
Proof.
  unfold rlt. intros [H1|[H1 H1']] [H2|[H2 H2']]; try (left; lia).
  right. split; [lia|]. eapply bcmp_lt_trans; eauto.
Qed.

Lemma rlt_total a b : rlt a b \/ a = b \/ rlt b a.
Proof.
  unfold rlt. destruct a as [ha va], b as [hb vb]. cbn [fst snd].
  destruct (lt_eq_lt_dec ha hb) as [[H|H]|H]; [left; left; auto | | right; right; left; auto].
  subst. destruct (bcmp va vb) eqn:E.
  - apply bcmp_eq in E. subst. right; left; reflexivity.
  - left; right; auto.
  - right; right; right. split; auto. apply bcmp_gt_lt; auto.
Qed.

Lemma rmax_spec a b : rmax a b = if lww_wins a (fst b) (snd b) then b else a.
Proof. reflexivity. Qed.

Lemma rmax_cases a b : (rlt a b /\ rmax a b = b) \/ (~ rlt a b /\ rmax a b = a).
Proof.
  unfold rmax. destruct b as [h v]. cbn [fst snd].
  destruct (lww_wins a h v) eqn:E; [left|right]; (split; [|reflexivity]).
  - apply lww_wins_spec, E.
  - intros H. apply lww_wins_spec in H. congruence.
Qed.

Lemma rmax_above a b z : rlt (rmax a b) z <-> rlt a z /\ rlt b z.
Proof.
  destruct (rmax_cases a b) as [[H ->]|[H ->]]; (split; [intros Hz; split | tauto]); try exact Hz.
  - eapply rlt_trans; eauto.
  - destruct (rlt_total a b) as [Hab|[<-|Hba]]; [contradiction|exact Hz|eapply rlt_trans; eauto].
Qed.

(* two elements with the same elements above them are equal; with [rmax_above] this decides every identity
   between iterated maxima *)
Lemma rlt_ext a b : (forall z, rlt a z <-> rlt b z) -> a = b.
Proof.
  intros H. destruct (rlt_total a b) as [Hab|[E|Hba]]; [|exact E|]; exfalso.
  - apply H in Hab. exact (rlt_irrefl _ Hab).
  - apply H in Hba. exact (rlt_irrefl _ Hba).
Qed.

Lemma rmax_comm3 a x y : rmax (rmax a x) y = rmax (rmax a y) x.
Proof. apply rlt_ext. intros z. rewrite !rmax_above. tauto. Qed.

Definition vs_eq (a b : vstate) : Prop :=
  v_marker a = v_marker b /\
  (forall f, get_reg f (v_regs a) = get_reg f (v_regs b)) /\
  (forall f, get_ctr f (v_ctrs a) = get_ctr f (v_ctrs b)).

Lemma vs_eq_refl a : vs_eq a a. Proof. repeat split. Qed.
Lemma vs_eq_sym a b : vs_eq a b -> vs_eq b a.
Proof. intros (H1 & H2 & H3). repeat split; intros; symmetry; auto. Qed.
Lemma vs_eq_trans a b c : vs_eq a b -> vs_eq b c -> vs_eq a c.
Proof. intros (H1 & H2 & H3) (G1 & G2 & G3). repeat split; intros; etransitivity; eauto. Qed.

Lemma get_reg_cons f g v l : get_reg f ((g, v) :: l) = if Z.eqb g f then v else get_reg f l.
Proof. reflexivity. Qed.
Lemma get_ctr_cons f g v l : get_ctr f ((g, v) :: l) = if Z.eqb g f then v else get_ctr f l.
Proof. reflexivity. Qed.

(* a delta acts on each observation separately: on the marker, on the register and on the counter of each field *)
Definition mfun (d : delta) (m : option bool) : option bool :=
  match d with
  | DStatus true => Some true
  | DStatus false => match m with None => Some false | Some b => Some b end
  | _ => m
  end.
Definition rfun (f : Z) (h : nat) (d : delta) (g : Z) (r : nat * list Z) : nat * list Z :=
  match d with DReg v => if Z.eqb f g then rmax r (h, v) else r | _ => r end.
Definition cfun (f : Z) (d : delta) (g : Z) (z : Z) : Z :=
  match d with DCtr x => if Z.eqb f g then (z + x)%Z else z | _ => z end.

Lemma marker_char vs f h d : v_marker (apply_delta vs f h d) = mfun d (v_marker vs).
Proof. destruct d as [[|]|v|x|]; try reflexivity. cbn [apply_delta]. destruct (lww_wins _ _ _); reflexivity. Qed.

Lemma reg_char vs f h d g : get_reg g (v_regs (apply_delta vs f h d)) = rfun f h d g (get_reg g (v_regs vs)).
Proof.
  destruct d as [[|]|v|x|]; try reflexivity. cbn [apply_delta rfun]. unfold rmax. cbn [fst snd].
  destruct (Z.eqb_spec f g) as [->|Hne]; destruct (lww_wins _ h v); cbn [v_regs]; rewrite ?get_reg_cons; try reflexivity.
  - now rewrite Z.eqb_refl.
  - now apply Z.eqb_neq in Hne as ->.
Qed.

Lemma ctr_char vs f h d g : get_ctr g (v_ctrs (apply_delta vs f h d)) = cfun f d g (get_ctr g (v_ctrs vs)).
Proof.
  destruct d as [[|]|v|x|]; try reflexivity; cbn [apply_delta cfun].
  - destruct (lww_wins _ _ _); reflexivity.
  - cbn [v_ctrs]. rewrite get_ctr_cons. destruct (Z.eqb_spec f g) as [->|Hne]; reflexivity.
Qed.

Lemma apply_delta_congr a b f h d : vs_eq a b -> vs_eq (apply_delta a f h d) (apply_delta b f h d).
Proof.
  intros (H1 & H2 & H3). split; [|split]; intros; rewrite ?marker_char, ?reg_char, ?ctr_char; congruence.
Qed.

Lemma apply_delta_comm a f1 h1 d1 f2 h2 d2 :
  vs_eq (apply_delta (apply_delta a f1 h1 d1) f2 h2 d2) (apply_delta (apply_delta a f2 h2 d2) f1 h1 d1).
Proof.
  split; [|split]; [|intros g..]; rewrite ?marker_char, ?reg_char, ?ctr_char.
  - destruct d1 as [[|]| | |], d2 as [[|]| | |]; try reflexivity; destruct (v_marker a) as [[|]|]; reflexivity.
  - destruct d1; try reflexivity; destruct d2; try reflexivity. cbn [rfun].
    destruct (Z.eqb f1 g), (Z.eqb f2 g); try reflexivity. apply rmax_comm3.
  - destruct d1; try reflexivity; destruct d2; try reflexivity. cbn [cfun].
    destruct (Z.eqb f1 g), (Z.eqb f2 g); try reflexivity. apply Z.add_shuffle0.
Qed.

Theorem blocks_perm u l1 l2 a : Permutation l1 l2 ->
  vs_eq (fold_left (apply_block u) l1 a) (fold_left (apply_block u) l2 a).
Proof.
  intros H. apply (fold_left_perm vs_eq (apply_block u) vs_eq_refl vs_eq_trans); [| |exact H|apply vs_eq_refl].
  - intros x y c. apply apply_delta_congr.
  - intros x c1 c2. apply apply_delta_comm.
Qed.
