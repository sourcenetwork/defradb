(* Head-store keys (internal/keys/headstore_doc.go, internal/core/block/heads.go): the heads of field f of document d
   are the keys /d/<d>/<f>/<cid>; the head set of a field is listed by a key prefix. Identifiers are byte strings
   without the separator. Listing by the prefix that ends with the separator returns exactly the keys of that field;
   listing by the bare field identifier (the pinned code) also returns the keys of every field whose identifier starts
   with the same bytes. *)
From Coq Require Import List ZArith.
From Verif Require Import Sem.
Import ListNotations.
Open Scope Z_scope.

Definition sep : Z := 47.                                   (* '/' *)
Definition head_key (doc field c : list Z) : list Z := doc ++ sep :: field ++ sep :: c.
Definition list_prefix (doc field : list Z) : list Z := doc ++ sep :: field ++ [sep].
Definition bare_prefix (doc field : list Z) : list Z := doc ++ sep :: field.

Lemma is_prefix_same_head p : forall a b, is_prefix (p ++ a) (p ++ b) = is_prefix a b.
Proof. induction p as [|x p IH]; intros a b; cbn [app is_prefix]; auto. now rewrite Z.eqb_refl, IH. Qed.

Lemma field_prefix_inj f : forall f' c, ~ In sep f -> ~ In sep f' ->
  is_prefix (f ++ [sep]) (f' ++ sep :: c) = true -> f = f'.
Proof.
  induction f as [|x f IH]; intros [|y f'] c Hf Hf' H; cbn [app is_prefix] in H; [reflexivity|..];
    apply andb_prop in H as [E H]; apply Z.eqb_eq in E.
  - destruct Hf'. left. auto.
  - destruct Hf. left. exact E.
  - subst y. f_equal. apply (IH f' c); [intros Hin; apply Hf|intros Hin; apply Hf'|exact H]; right; exact Hin.
Qed.

(* listing with the closing separator: exactly the keys of that document and field *)
Theorem listing_exact doc f f' c : ~ In sep f -> ~ In sep f' ->
  (is_prefix (list_prefix doc f) (head_key doc f' c) = true <-> f = f').
Proof.
  intros Hf Hf'. unfold list_prefix, head_key. rewrite (is_prefix_same_head doc (sep :: _)). cbn [is_prefix].
  rewrite Z.eqb_refl. split; [apply field_prefix_inj; assumption|]. intros <-. now rewrite is_prefix_same_head.
Qed.

(* listing by the bare identifier: field "2" also gets the heads of field "24" *)
Example bare_listing_refuted :
  let doc := [100; 49] in let c := [99] in
  is_prefix (bare_prefix doc [50]) (head_key doc [50; 52] c) = true /\
  is_prefix (list_prefix doc [50]) (head_key doc [50; 52] c) = false.
Proof. vm_compute. split; reflexivity. Qed.
