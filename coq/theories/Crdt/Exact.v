(* What the value state of a replica is, as a function of the merged commits:
   counters are sums, the delete marker is a disjunction, registers are lexicographic maxima. *)
From Coq Require Import List ZArith Bool.
From Verif Require Import ListFacts Model Sweep Order Conv.
Import ListNotations.
Local Open Scope nat_scope.

Section Exact.
Variable u : universe.

Definition ctr_of (f : Z) (c : nat) : Z :=
  match b_delta (getb u c) with
  | DCtr x => if Z.eqb (b_field (getb u c)) f then x else 0%Z
  | _ => 0%Z
  end.
Definition sum_ctr (f : Z) (l : list nat) : Z := fold_right (fun c acc => (ctr_of f c + acc)%Z) 0%Z l.

Lemma get_ctr_block f vs c :
  get_ctr f (v_ctrs (apply_block u vs c)) = (get_ctr f (v_ctrs vs) + ctr_of f c)%Z.
Proof.
  unfold apply_block, ctr_of. rewrite ctr_char. unfold cfun.
  destruct (b_delta (getb u c)); try (symmetry; apply Z.add_0_r).
  destruct (Z.eqb _ f); [reflexivity | symmetry; apply Z.add_0_r].
Qed.

Lemma get_ctr_fold f l : forall vs,
  get_ctr f (v_ctrs (fold_left (apply_block u) l vs)) = (get_ctr f (v_ctrs vs) + sum_ctr f l)%Z.
Proof.
  induction l as [|c l IH]; intros vs; cbn [fold_left sum_ctr fold_right]; [symmetry; apply Z.add_0_r|].
  rewrite IH, get_ctr_block. symmetry. apply Z.add_assoc.
Qed.

Definition is_delete (c : nat) : bool :=
  match b_delta (getb u c) with DStatus true => true | _ => false end.

Definition deleted (vs : vstate) : bool := match v_marker vs with Some true => true | _ => false end.

Lemma deleted_true vs : deleted vs = true <-> v_marker vs = Some true.
Proof. unfold deleted. destruct (v_marker vs) as [[|]|]; split; congruence. Qed.

Lemma deleted_block vs c : deleted (apply_block u vs c) = deleted vs || is_delete c.
Proof.
  unfold deleted, apply_block, is_delete. rewrite marker_char.
  destruct (b_delta (getb u c)) as [[|]| | |], (v_marker vs) as [[|]|]; reflexivity.
Qed.

Lemma deleted_fold l : forall vs, deleted (fold_left (apply_block u) l vs) = deleted vs || existsb is_delete l.
Proof.
  induction l as [|c l IH]; intros vs; cbn [fold_left existsb]; [symmetry; apply orb_false_r|].
  rewrite IH, deleted_block. symmetry. apply orb_assoc.
Qed.

Definition rle (a b : nat * list Z) : Prop := ~ rlt b a.
Lemma rle_refl a : rle a a. Proof. apply rlt_irrefl. Qed.
Lemma rle_trans a b c : rle a b -> rle b c -> rle a c.
Proof.
  unfold rle. intros H1 H2 H3.
  destruct (rlt_total a b) as [H|[->|H]]; auto.
  - apply H2. eapply rlt_trans; eauto.
Qed.
Lemma rmax_ge_l a b : rle a (rmax a b).
Proof. intros H. apply rmax_above in H. exact (rlt_irrefl _ (proj1 H)). Qed.
Lemma rmax_ge_r a b : rle b (rmax a b).
Proof. intros H. apply rmax_above in H. exact (rlt_irrefl _ (proj2 H)). Qed.

Definition reg_of (f : Z) (c : nat) : option (nat * list Z) :=
  match b_delta (getb u c) with
  | DReg v => if Z.eqb (b_field (getb u c)) f then Some (b_height (getb u c), v) else None
  | _ => None
  end.

Lemma get_reg_block f vs c :
  get_reg f (v_regs (apply_block u vs c)) =
  match reg_of f c with Some r => rmax (get_reg f (v_regs vs)) r | None => get_reg f (v_regs vs) end.
Proof.
  unfold apply_block, reg_of. rewrite reg_char. unfold rfun.
  destruct (b_delta (getb u c)); try reflexivity. destruct (Z.eqb _ f); reflexivity.
Qed.

Lemma get_reg_fold f l : forall vs,
  let r := get_reg f (v_regs (fold_left (apply_block u) l vs)) in
  rle (get_reg f (v_regs vs)) r /\
  (forall c w, In c l -> reg_of f c = Some w -> rle w r) /\
  (r = get_reg f (v_regs vs) \/ exists c, In c l /\ reg_of f c = Some r).
Proof.
  induction l as [|c l IH]; intros vs; cbn [fold_left].
  - cbn. repeat split; auto using rle_refl. intros c w [].
  - destruct (IH (apply_block u vs c)) as (H1 & H2 & H3). cbn zeta in *.
    rewrite get_reg_block in H1, H3.
    split; [|split].
    + destruct (reg_of f c) as [w|]; auto. eapply rle_trans; [apply rmax_ge_l | exact H1].
    + intros c' w [<-|Hin] Hw; [|eapply H2; eauto].
      rewrite Hw in H1. eapply rle_trans; [apply rmax_ge_r | exact H1].
    + destruct H3 as [H3|[c' [Hin Hc']]]; [|right; exists c'; split; [right; auto|auto]].
      destruct (reg_of f c) as [w|] eqn:Ew; auto.
      destruct (rmax_cases (get_reg f (v_regs vs)) w) as [[_ E]|[_ E]]; rewrite E in H3; auto.
      right. exists c. split; [left; reflexivity|]. rewrite Ew, H3. reflexivity.
Qed.

Theorem rinv_counter s f : RInv u s -> get_ctr f (v_ctrs (r_vs s)) = sum_ctr f (blocks_of u (r_merged s)).
Proof. intros HI. rewrite (rinv_blocks u s HI). apply get_ctr_fold. Qed.

Theorem rinv_deleted s : RInv u s ->
  v_marker (r_vs s) = Some true <-> existsb is_delete (blocks_of u (r_merged s)) = true.
Proof. intros HI. rewrite <- deleted_true, (rinv_blocks u s HI), deleted_fold. reflexivity. Qed.

Theorem rinv_register s f : RInv u s ->
  let r := get_reg f (v_regs (r_vs s)) in
  (forall c w, In c (blocks_of u (r_merged s)) -> reg_of f c = Some w -> rle w r) /\
  (r = (O, cbor_nil) \/ exists c, In c (blocks_of u (r_merged s)) /\ reg_of f c = Some r).
Proof. intros HI. rewrite (rinv_blocks u s HI). apply (get_reg_fold f _ vinit). Qed.

End Exact.

(* the hypotheses of Conv as a check, which Corr/CorrCRDT.check_case runs on the blocks the implementation wrote *)
Definition wfb (u : universe) : bool :=
  forallb (fun b => (1 <=? b_height b) &&
                    forallb (fun p => (p <? length u) && (height u p <? b_height b)) (b_parents b)) u.

Lemma wfb_sound u : wfb u = true ->
  (forall b p, In p (parents u b) -> height u p < height u b) /\ (forall b, 1 <= height u b).
Proof.
  intros H. unfold wfb in H. rewrite forallb_forall in H.
  (* a block is an element of u, or the dummy, which has height 1 and no parents *)
  assert (G : forall b, 1 <= b_height (getb u b) /\ forall p, In p (b_parents (getb u b)) -> height u p < b_height (getb u b)).
  { intros b. unfold getb. destruct (nth_in_or_default b u dummy) as [Hb| ->]; [|split; [apply le_n|intros p []]].
    apply H, andb_prop in Hb as [H1 H2]. split; [apply Nat.leb_le, H1|].
    (* the range check is not needed: a parent outside u reads as the dummy, a root. It makes check_case refuse a
       recorded case whose blocks name a parent that was not recorded *)
    intros p Hp. rewrite forallb_forall in H2. apply H2, andb_prop in Hp as [_ Hp]. apply Nat.ltb_lt, Hp. }
  split; intros b; apply G.
Qed.

Definition reach (u : universe) (ops : list op) : rstate := fold_left (step u) ops rinit.

Lemma reach_inv u ops : wfb u = true -> RInv u (reach u ops).
Proof. intros H. destruct (wfb_sound u H) as [H1 H2]. apply reachable_inv; assumption. Qed.

Theorem convergence u ops1 ops2 : wfb u = true ->
  (forall b, In b (r_merged (reach u ops1)) <-> In b (r_merged (reach u ops2))) ->
  vs_eq (r_vs (reach u ops1)) (r_vs (reach u ops2)) /\
  (forall b, In b (r_heads (reach u ops1)) <-> In b (r_heads (reach u ops2))).
Proof. intros H. apply (same_merged_same_state u); apply reach_inv, H. Qed.

Theorem counter_exact u ops f : wfb u = true ->
  get_ctr f (v_ctrs (r_vs (reach u ops))) = sum_ctr u f (blocks_of u (r_merged (reach u ops))) /\
  NoDup (r_merged (reach u ops)).
Proof. intros H. pose proof (reach_inv u ops H) as HI. split; [apply rinv_counter, HI|apply (ri_nodup _ _ HI)]. Qed.

Theorem delete_iff u ops : wfb u = true ->
  v_marker (r_vs (reach u ops)) = Some true <-> existsb (is_delete u) (blocks_of u (r_merged (reach u ops))) = true.
Proof. intros H. apply rinv_deleted, reach_inv, H. Qed.

Theorem register_latest u ops f : wfb u = true ->
  let r := get_reg f (v_regs (r_vs (reach u ops))) in
  (forall c w, In c (blocks_of u (r_merged (reach u ops))) -> reg_of u f c = Some w -> rle w r) /\
  (r = (O, cbor_nil) \/ exists c, In c (blocks_of u (r_merged (reach u ops))) /\ reg_of u f c = Some r).
Proof. intros H. apply rinv_register, reach_inv, H. Qed.

Lemma reach_app u ops more : reach u (ops ++ more) = fold_left (step u) more (reach u ops).
Proof. apply fold_left_app. Qed.

Theorem deliver_brings_ancestors u ops c b : wfb u = true ->
  Sweep.Anc (parents u) c b -> In b (r_merged (reach u (ops ++ [ODeliver c]))).
Proof.
  intros H Ha. destruct (wfb_sound u H) as [H1 H2]. rewrite reach_app.
  apply (deliver_inv u H1 H2 _ c (reach_inv u ops H)). right. exact Ha.
Qed.

Theorem merged_grows u ops more b : wfb u = true ->
  In b (r_merged (reach u ops)) -> In b (r_merged (reach u (ops ++ more))).
Proof.
  intros H Hb. destruct (wfb_sound u H) as [H1 H2]. rewrite reach_app.
  apply (fold_left_inv (fun s => RInv u s /\ In b (r_merged s))); [|split; [apply reach_inv, H|exact Hb]].
  intros s o [HI Hs]. split; [apply step_inv|apply step_grows]; assumption.
Qed.

Lemma blocks_of_in u m c : In c m -> In c (blocks_of u m).
Proof. intros H. unfold blocks_of. apply in_flat_map. exists c. split; auto. left; reflexivity. Qed.

Theorem delete_sticky u ops more : wfb u = true ->
  v_marker (r_vs (reach u ops)) = Some true -> v_marker (r_vs (reach u (ops ++ more))) = Some true.
Proof.
  intros H Hd. apply (delete_iff u _ H). apply (delete_iff u _ H), existsb_exists in Hd as [x [Hx Hdel]].
  apply existsb_exists. exists x. split; [|exact Hdel].
  apply in_flat_map in Hx as [c [Hc Hxc]]. apply in_flat_map. exists c. split; [apply merged_grows|]; assumption.
Qed.

Theorem heads_maximal u ops b : wfb u = true ->
  In b (r_heads (reach u ops)) <->
  (In b (r_merged (reach u ops)) /\ forall x, In x (r_merged (reach u ops)) -> ~ In b (parents u x)).
Proof. intros H. apply (ri_heads _ _ (reach_inv u ops H)). Qed.

Theorem merged_closed u ops b p : wfb u = true ->
  In b (r_merged (reach u ops)) -> In p (parents u b) -> In p (r_merged (reach u ops)).
Proof. intros H. apply (ri_down _ _ (reach_inv u ops H)). Qed.
