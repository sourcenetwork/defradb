(* Invariants of a replica under any sequence of local writes and deliveries, and convergence. *)
From Coq Require Import List Arith Bool Lia Permutation Sorted.
From Verif Require Import ListFacts Model Sweep Order.
Import ListNotations.
Local Open Scope nat_scope.

Section Conv.
Variable u : universe.
Hypothesis wfu : forall b p, In p (parents u b) -> height u p < height u b.
Hypothesis hpos : forall b, 1 <= height u b.

Notation Anc := (Sweep.Anc (parents u)).

Definition apply_comp_v (vs : vstate) (c : nat) : vstate :=
  fold_left (apply_block u) (links u c) (apply_block u vs c).
Definition blocks_of (m : list nat) : list nat := flat_map (fun c => c :: links u c) m.

Lemma fold_comp_blocks m vs : fold_left apply_comp_v m vs = fold_left (apply_block u) (blocks_of m) vs.
Proof.
  revert vs; induction m as [|c m IH]; intros vs; [reflexivity|].
  cbn [fold_left blocks_of flat_map]. rewrite fold_left_app. cbn [fold_left]. rewrite IH. reflexivity.
Qed.

Definition maximal (m : list nat) (b : nat) : Prop :=
  In b m /\ forall x, In x m -> ~ In b (parents u x).

Record RInv (s : rstate) : Prop := {
  ri_nodup : NoDup (r_merged s);
  ri_down : forall b p, In b (r_merged s) -> In p (parents u b) -> In p (r_merged s);
  ri_heads : forall b, In b (r_heads s) <-> maximal (r_merged s) b;
  ri_vs : r_vs s = fold_left apply_comp_v (r_merged s) vinit }.

Lemma rinv_init : RInv rinit.
Proof.
  constructor; cbn [rinit r_merged r_heads r_vs].
  - constructor.
  - intros b p [].
  - intros b. unfold maximal. cbn [In]. tauto.
  - reflexivity.
Qed.

Lemma rinv_blocks s : RInv s -> r_vs s = fold_left (apply_block u) (blocks_of (r_merged s)) vinit.
Proof. intros HI. rewrite (ri_vs _ HI). apply fold_comp_blocks. Qed.

Lemma maximal_snoc m c : (forall x p, In x m -> In p (parents u x) -> In p m) -> ~ In c m ->
  (forall p, In p (parents u c) -> In p m) ->
  forall b, maximal (m ++ [c]) b <-> c = b \/ maximal m b /\ ~ In b (parents u c).
Proof.
  intros Hdown Hc Hp b. unfold maximal. split.
  - intros [Hb Hm]. apply in_app_or in Hb as [Hb|[<-|[]]]; [right|left; reflexivity].
    split; [split; [exact Hb|intros x Hx]|]; apply Hm, in_or_app; cbn; auto.
  - intros [<-|[[Hb Hm] Hbc]]; (split; [apply in_or_app; cbn; auto|]); intros x Hx; apply in_app_or in Hx as [Hx|[<-|[]]].
    + intros Hcx. apply Hc. eapply Hdown; eauto.
    + intros Hcc. apply Hc, Hp, Hcc.
    + apply Hm, Hx.
    + exact Hbc.
Qed.

Lemma apply_comp_inv s c : RInv s -> ~ In c (r_merged s) -> (forall p, In p (parents u c) -> In p (r_merged s)) ->
  RInv (apply_comp u s c).
Proof.
  intros HI Hc Hp. constructor; cbn [apply_comp r_merged r_heads r_vs].
  - apply (Permutation_NoDup (Permutation_cons_append _ c)). constructor; [exact Hc|apply (ri_nodup _ HI)].
  - intros b p Hb Hbp. apply in_or_app. left. apply in_app_or in Hb as [Hb|[<-|[]]]; [eapply (ri_down _ HI); eauto|auto].
  - intros b. cbn [In]. unfold mem. rewrite filter_In, (ri_heads _ HI), negb_true_iff, existsb_eqb_notIn.
    symmetry. apply (maximal_snoc _ _ (ri_down _ HI) Hc Hp).
  - rewrite fold_left_app. cbn [fold_left]. rewrite <- (ri_vs _ HI). reflexivity.
Qed.

Lemma apply_comp_merged s c : r_merged (apply_comp u s c) = r_merged s ++ [c].
Proof. reflexivity. Qed.

Lemma fold_apply_merged L : forall s, r_merged (fold_left (apply_comp u) L s) = r_merged s ++ L.
Proof.
  induction L as [|x L IH]; intros s; cbn [fold_left]; [symmetry; apply app_nil_r|].
  rewrite IH. symmetry. apply (app_assoc _ [x] L).
Qed.

Lemma fold_apply_inv L : forall s, RInv s -> NoDup (r_merged s ++ L) -> StronglySorted (Sweep.hle (height u)) L ->
  (forall x p, In x L -> In p (parents u x) -> In p (r_merged s ++ L)) -> RInv (fold_left (apply_comp u) L s).
Proof.
  induction L as [|x L IH]; intros s HI Hnd Hss Hpar; cbn [fold_left]; [exact HI|].
  apply StronglySorted_inv in Hss as [Hss Hx]. rewrite Forall_forall in Hx.
  assert (HI' : RInv (apply_comp u s x)).
  { apply apply_comp_inv; [exact HI| |].
    - apply NoDup_remove_2 in Hnd. intros Hin. apply Hnd, in_or_app. auto.
    - (* a parent of x is lower than x, hence neither x nor behind x *)
      intros p Hp. destruct (in_app_or _ _ _ (Hpar x p (or_introl eq_refl) Hp)) as [Hm|[->|Hl]]; [exact Hm| |].
      + apply wfu in Hp. lia.
      + apply wfu in Hp. apply Hx in Hl. unfold Sweep.hle in Hl. lia. }
  replace (r_merged s ++ x :: L) with (r_merged (apply_comp u s x) ++ L) in * by (symmetry; apply (app_assoc _ [x] L)).
  apply IH; auto. intros y p Hy. apply Hpar. right. exact Hy.
Qed.

Lemma anc_in_merged s : RInv s -> forall h b, In h (r_merged s) -> Anc h b -> In b (r_merged s).
Proof.
  intros HI h b Hh Ha. induction Ha as [b|b p a Hp Ha IH]; auto.
  apply IH. eapply (ri_down _ HI); eauto.
Qed.

Lemma height_le_max l x : In x l -> height u x <= max_height u l.
Proof.
  induction l as [|y l IH]; [intros []|]. cbn [max_height fold_right]. intros [->|H]; [lia|].
  specialize (IH H). unfold max_height in IH. lia.
Qed.

(* every element of a finite set lies below a maximal one: climb; each step gains height, which is bounded in m *)
Lemma below_maximal m b : In b m -> exists h, maximal m h /\ Anc h b.
Proof.
  induction b as [b IH] using (induction_ltof1 _ (fun b => max_height u m - height u b)). unfold ltof in IH. intros Hb.
  destruct (in_dec Nat.eq_dec b (flat_map (parents u) m)) as [E|E].
  - apply in_flat_map in E as [x [Hx Hbx]]. apply wfu in Hbx as Hlt. apply height_le_max in Hx as Hle.
    destruct (IH x ltac:(lia) Hx) as [h [Hh Ha]]. exists h. split; [exact Hh|]. eapply Sweep.anc_parent; eauto.
  - exists b. split; [|constructor]. split; [exact Hb|]. intros x Hx Hbx. apply E, in_flat_map. eauto.
Qed.

Lemma merged_iff s : RInv s -> forall b, Sweep.Merged (parents u) (r_heads s) b <-> In b (r_merged s).
Proof.
  intros HI b. split.
  - intros [h [Hh Ha]]. apply (ri_heads _ HI) in Hh. destruct Hh as [Hh _]. eapply anc_in_merged; eauto.
  - intros Hb. destruct (below_maximal _ b Hb) as [h [Hh Ha]]. exists h. split; [apply (ri_heads _ HI), Hh|exact Ha].
Qed.

Lemma to_merge_exact s c : RInv s -> forall b, In b (to_merge u s c) <-> Anc c b /\ ~ In b (r_merged s).
Proof.
  intros HI b. unfold to_merge. destruct (mem c (r_heads s)) eqn:Ec.
  - (* c is a head: all its ancestors are merged *)
    split; [intros []|]. intros [Ha Hn]. apply Hn. apply existsb_eqb_In, (ri_heads _ HI) in Ec.
    eapply anc_in_merged; [exact HI|apply Ec|exact Ha].
  - rewrite <- (merged_iff s HI). apply Sweep.sweep_init; auto; [|lia].
    intros x Hx. apply height_le_max in Hx. lia.
Qed.

Lemma to_merge_nodup_sorted s c : NoDup (to_merge u s c) /\ StronglySorted (Sweep.hle (height u)) (to_merge u s c).
Proof. unfold to_merge. destruct (mem c (r_heads s)); [split; constructor|apply Sweep.sweep_nodup_sorted]. Qed.

Theorem deliver_inv s c : RInv s -> RInv (deliver u s c) /\
  (forall b, In b (r_merged (deliver u s c)) <-> (In b (r_merged s) \/ Anc c b)).
Proof.
  intros HI. unfold deliver. pose proof (to_merge_exact s c HI) as Hex. destruct (to_merge_nodup_sorted s c) as [Hnd Hss].
  set (L := to_merge u s c) in *.
  assert (Hm : forall b, In b (r_merged s ++ L) <-> In b (r_merged s) \/ Anc c b).
  { intros b. rewrite in_app_iff, Hex. destruct (in_dec Nat.eq_dec b (r_merged s)); tauto. }
  split; [|intros b; rewrite fold_apply_merged; apply Hm]. apply fold_apply_inv; auto.
  - apply NoDup_app_intro; [apply (ri_nodup _ HI)|exact Hnd|]. intros x Hx HL. apply Hex in HL. apply HL, Hx.
  - intros x p Hx Hp. apply Hm. right. apply Hex in Hx. eapply Sweep.anc_parent; [apply Hx|exact Hp].
Qed.

Theorem local_inv s c : RInv s -> local_ok u s c = true -> RInv (local u s c).
Proof.
  intros HI Hok. apply andb_prop in Hok as [Hok Hfresh].
  (* the height equation is not needed, wfu orders the heights: it is the priority the code gives a new block, which
     the correspondence run checks on the blocks the implementation wrote (Corr/CorrCRDT.run_step) *)
  apply andb_prop in Hok as [Hsame _].
  apply andb_prop in Hsame as [Hsub _]. apply apply_comp_inv; auto.
  - apply existsb_eqb_notIn, negb_true_iff, Hfresh.
  - intros p Hp. rewrite forallb_forall in Hsub. apply Hsub, existsb_eqb_In, (ri_heads _ HI) in Hp. apply Hp.
Qed.

Inductive op := OLocal (c : nat) | ODeliver (c : nat).
Definition step (s : rstate) (o : op) : rstate :=
  match o with
  | OLocal c => if local_ok u s c then local u s c else s     (* a write that is not on top of the heads is not a local write *)
  | ODeliver c => deliver u s c
  end.

Lemma step_inv s o : RInv s -> RInv (step s o).
Proof.
  intros HI. destruct o as [c|c]; cbn [step]; [|apply deliver_inv, HI].
  destruct (local_ok u s c) eqn:E; [apply local_inv|]; auto.
Qed.

Lemma step_grows s o b : RInv s -> In b (r_merged s) -> In b (r_merged (step s o)).
Proof.
  intros HI Hb. destruct o as [c|c]; cbn [step].
  - destruct (local_ok u s c); [apply in_or_app; left|]; exact Hb.
  - apply (deliver_inv s c HI). left. exact Hb.
Qed.

Theorem reachable_inv ops : RInv (fold_left step ops rinit).
Proof. apply fold_left_inv; [exact step_inv|exact rinv_init]. Qed.

(* the observable state is a function of the SET of merged commits *)
Theorem same_merged_same_state s1 s2 : RInv s1 -> RInv s2 ->
  (forall b, In b (r_merged s1) <-> In b (r_merged s2)) ->
  vs_eq (r_vs s1) (r_vs s2) /\ (forall b, In b (r_heads s1) <-> In b (r_heads s2)).
Proof.
  intros H1 H2 Hset. split.
  - rewrite (rinv_blocks _ H1), (rinv_blocks _ H2).
    apply blocks_perm. unfold blocks_of. apply Permutation_flat_map.
    apply NoDup_Permutation; [apply (ri_nodup _ H1) | apply (ri_nodup _ H2) | exact Hset].
  - intros b. rewrite (ri_heads _ H1), (ri_heads _ H2). unfold maximal. rewrite Hset.
    split; intros [Hb Hm]; split; auto; intros x Hx; apply Hm; apply Hset; auto.
Qed.

End Conv.
