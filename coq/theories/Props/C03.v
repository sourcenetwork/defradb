(* C03 - a document queried at a commit shows exactly the state of that commit. *)
From Coq Require Import List ZArith.
From Verif Require Import Model Sweep Order Conv Exact Versioned.
Import ListNotations.

(* the time-travel state applies the commit and each of its ancestors exactly once *)
Theorem C03_versioned_is_replay : forall u c, wfb u = true ->
  RInv u (versioned u c) /\ (forall b, In b (r_merged (versioned u c)) <-> Sweep.Anc (parents u) c b).
Proof. exact versioned_is_replay. Qed.
Print Assumptions C03_versioned_is_replay.

(* it equals the state of any replica, reached by any history, that has merged exactly the commit and its
   ancestors - in particular the writer right after committing c on a locally written linear history *)
Theorem C03_matches_past : forall u c ops, wfb u = true ->
  (forall b, In b (r_merged (reach u ops)) <-> Sweep.Anc (parents u) c b) ->
  vs_eq (r_vs (versioned u c)) (r_vs (reach u ops)).
Proof. exact versioned_eq_replica. Qed.
Print Assumptions C03_matches_past.

(* at the single current head it equals the current state *)
Theorem C03_head_is_current : forall u c ops, wfb u = true ->
  (forall b, In b (r_heads (reach u ops)) <-> b = c) ->
  vs_eq (r_vs (versioned u c)) (r_vs (reach u ops)).
Proof. exact versioned_at_single_head. Qed.
Print Assumptions C03_head_is_current.

(* counters read the sum of the increments up to the commit, each ancestor counted once *)
Theorem C03_counter_prefix_sum : forall u c f, wfb u = true ->
  get_ctr f (v_ctrs (r_vs (versioned u c))) = sum_ctr u f (blocks_of u (r_merged (versioned u c))) /\
  NoDup (r_merged (versioned u c)) /\
  (forall b, In b (r_merged (versioned u c)) <-> Sweep.Anc (parents u) c b).
Proof. exact versioned_counter. Qed.
Print Assumptions C03_counter_prefix_sum.

(* non-vacuity: the counter history +1,+2,+3,+4 reads 1,3,6,10 at its four commits (the pinned code read 1,5,15,35) *)
Definition ex_u3 : universe :=
  [ mkB (-1) 1 [] [1] (DStatus false); mkB 3 1 [] [] (DCtr 1);
    mkB (-1) 2 [0] [3] (DStatus false); mkB 3 2 [1] [] (DCtr 2);
    mkB (-1) 3 [2] [5] (DStatus false); mkB 3 3 [3] [] (DCtr 3);
    mkB (-1) 4 [4] [7] (DStatus false); mkB 3 4 [5] [] (DCtr 4) ]%nat.
Example C03_nonvacuous :
  wfb ex_u3 = true /\
  map (fun c => get_ctr 3 (v_ctrs (r_vs (versioned ex_u3 c)))) [0; 2; 4; 6]%nat = [1; 3; 6; 10]%Z.
Proof. vm_compute. split; reflexivity. Qed.
