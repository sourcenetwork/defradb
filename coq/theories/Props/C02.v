(* C02 - every update is applied exactly once; nothing lost, nothing doubled.
   For every well-formed universe and every reachable replica state (any operation sequence, any redelivery). *)
From Coq Require Import List ZArith.
From Verif Require Import Model Sweep Order Conv Exact.
Import ListNotations.

(* a counter equals the sum of the increments linked by the merged commits, and no commit is merged twice *)
Theorem C02_counter_exact : forall u ops f, wfb u = true ->
  get_ctr f (v_ctrs (r_vs (reach u ops))) = sum_ctr u f (blocks_of u (r_merged (reach u ops))) /\
  NoDup (r_merged (reach u ops)).
Proof. exact counter_exact. Qed.
Print Assumptions C02_counter_exact.

(* a register holds a merged write that no other merged write of that field beats in (height, bytes);
   since heights strictly increase along parent links it is not an ancestor of another merged write *)
Theorem C02_register_latest : forall u ops f, wfb u = true ->
  let r := get_reg f (v_regs (r_vs (reach u ops))) in
  (forall c w, In c (blocks_of u (r_merged (reach u ops))) -> reg_of u f c = Some w -> rle w r) /\
  (r = (O, cbor_nil) \/ exists c, In c (blocks_of u (r_merged (reach u ops))) /\ reg_of u f c = Some r).
Proof. exact register_latest. Qed.
Print Assumptions C02_register_latest.

(* deleted exactly when a merged commit deleted; never resurrected *)
Theorem C02_deleted_iff : forall u ops, wfb u = true ->
  v_marker (r_vs (reach u ops)) = Some true <->
  existsb (is_delete u) (blocks_of u (r_merged (reach u ops))) = true.
Proof. exact delete_iff. Qed.
Print Assumptions C02_deleted_iff.

Theorem C02_delete_sticky : forall u ops more, wfb u = true ->
  v_marker (r_vs (reach u ops)) = Some true -> v_marker (r_vs (reach u (ops ++ more))) = Some true.
Proof. exact delete_sticky. Qed.
Print Assumptions C02_delete_sticky.

(* merging a commit makes all of its ancestors merged as well *)
Theorem C02_ancestors_visible : forall u ops c b, wfb u = true ->
  Sweep.Anc (parents u) c b -> In b (r_merged (reach u (ops ++ [ODeliver c]))).
Proof. exact deliver_brings_ancestors. Qed.
Print Assumptions C02_ancestors_visible.

(* non-vacuity: counter increments 1,+2,+4 on a branching history with redelivery of a merged ancestor *)
Definition ex_u2 : universe :=
  [ mkB (-1) 1 [] [1] (DStatus false); mkB 3 1 [] [] (DCtr 1);
    mkB (-1) 2 [0] [3] (DStatus false); mkB 3 2 [1] [] (DCtr 2);
    mkB (-1) 2 [0] [5] (DStatus false); mkB 3 2 [1] [] (DCtr 4) ]%nat.
Example C02_nonvacuous :
  wfb ex_u2 = true /\
  get_ctr 3 (v_ctrs (r_vs (reach ex_u2 [ODeliver 2; ODeliver 4; ODeliver 0; ODeliver 2; ODeliver 4]%nat))) = 7%Z.
Proof. vm_compute. split; reflexivity. Qed.
