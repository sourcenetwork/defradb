(* C18 - export followed by import reproduces the data (identifier level: ids are content hashes, modelled as terms). *)
From Coq Require Import List ZArith Arith Bool.
From Verif Require Import Backup BackupProofs.
From Verif Require Defaults.
Import ListNotations.

(* the document import creates from an exported entry has the announced id, the source's collection and current
   values, and as many foreign keys *)
Theorem C18_import_matches_announced : forall fuel d i e,
  export_doc fuel d i = Some e ->
  let '(id, c, v, fks) := import_entry e in
  id = e_new e /\ newid fuel d i = Some id /\
  (exists x, nth_error d i = Some x /\ c = d_col x /\ v = d_vals x /\ length fks = length (d_fks x)).
Proof. exact import_matches_announced. Qed.
Print Assumptions C18_import_matches_announced.

(* every relation of the source holds between the images: the k-th foreign key written for document i is the id
   announced for (and given by import to) the document it referenced, for reference chains of any depth *)
Theorem C18_relations_follow_mapping : forall f d i x c v fks k j,
  nth_error d i = Some x -> newid (S f) d i = Some (Hid c v fks) ->
  nth_error (d_fks x) k = Some (Some j) ->
  exists t, nth_error fks k = Some (Some t) /\ newid f d j = Some t.
Proof. exact relations_follow_mapping. Qed.
Print Assumptions C18_relations_follow_mapping.

(* exporting the imported database announces no further change: a second export / import is the identity on ids *)
Theorem C18_reexport_stable : forall fuel d d',
  same_content d d' ->
  (forall i y, nth_error d' i = Some y -> newid fuel d i = Some (d_id y)) ->
  consistent fuel d'.
Proof. exact reexport_stable. Qed.
Print Assumptions C18_reexport_stable.

(* the pinned export rewrites foreign keys one level deep only; on a chain c -> b -> a with a updated it writes into c
   an id that b will not have after import (recorded finding) *)
Lemma C18_one_level_refuted :
  let a := {| d_col := 0; d_id := Hid 0 [1%Z] []; d_vals := [2%Z]; d_fks := [] |} in
  let b := {| d_col := 0; d_id := Hid 0 [10%Z] [Some (Hid 0 [1%Z] [])]; d_vals := [10%Z]; d_fks := [Some 0] |} in
  let c := {| d_col := 0; d_id := Hid 0 [20%Z] [Some (d_id b)]; d_vals := [20%Z]; d_fks := [Some 1] |} in
  let d := [a; b; c] in
  exists tb tc1 fk, newid 5 d 1 = Some tb /\ newid_one_level d 2 = Some tc1 /\ tc1 = Hid 0 [20%Z] [Some fk] /\ fk <> tb.
Proof.
  intros a b c d. exists (Hid 0 [10%Z] [Some (Hid 0 [2%Z] [])]), (Hid 0 [20%Z] [Some (d_id b)]), (d_id b).
  repeat split. discriminate.
Qed.

(* values: nulls and default values. Creating from an input applies a field's default only where the input does not
   mention the field; the export writes an explicit null for a null field that has a default, so the import re-creates
   the stored document exactly (an export that leaves nulls out turns them into the default: pinned_export_refuted,
   finding F56) *)
Theorem C18_nulls_and_defaults_roundtrip : forall sch doc, length doc = length sch ->
  Defaults.create sch (Defaults.export_fixed sch doc) = doc.
Proof. exact Defaults.export_import_roundtrip. Qed.
Print Assumptions C18_nulls_and_defaults_roundtrip.
