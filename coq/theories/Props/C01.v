(* C01 - replicas that have seen the same commits show the same documents.
   Statements are over the operational replica model (Crdt/Model.v: level-sweep merge walk, LWW registers,
   counters, delete marker, document-level heads), for every well-formed block universe [u] and every
   sequence of local writes and deliveries - any order, interleaving, duplication. *)
From Coq Require Import List ZArith.
From Verif Require Import Model Sweep Order Conv Exact.
Import ListNotations.

(* Two replicas reached by ANY two operation sequences that have merged the same set of commits show the
   same value state (marker, every register, every counter) and the same head set. *)
Theorem C01_convergence : forall u ops1 ops2, wfb u = true ->
  (forall b, In b (r_merged (reach u ops1)) <-> In b (r_merged (reach u ops2))) ->
  vs_eq (r_vs (reach u ops1)) (r_vs (reach u ops2)) /\
  (forall b, In b (r_heads (reach u ops1)) <-> In b (r_heads (reach u ops2))).
Proof. exact convergence. Qed.
Print Assumptions C01_convergence.

(* Delivering a commit merges exactly its not yet merged ancestors: afterwards the merged set is the old
   one plus all ancestors of the commit, whatever was merged before and however often it is redelivered. *)
Theorem C01_deliver_exact : forall u,
  (forall b p, In p (parents u b) -> (height u p < height u b)%nat) -> (forall b, (1 <= height u b)%nat) ->
  forall s c, RInv u s ->
  RInv u (deliver u s c) /\
  (forall b, In b (r_merged (deliver u s c)) <-> (In b (r_merged s) \/ Sweep.Anc (parents u) c b)).
Proof. exact deliver_inv. Qed.
Print Assumptions C01_deliver_exact.

(* The order in which field deltas are applied is irrelevant (registers: lexicographic maximum of
   (height, bytes); counters: sums; delete marker: disjunction). *)
Theorem C01_order_irrelevant : forall u l1 l2 a, Permutation.Permutation l1 l2 ->
  vs_eq (fold_left (apply_block u) l1 a) (fold_left (apply_block u) l2 a).
Proof. exact blocks_perm. Qed.
Print Assumptions C01_order_irrelevant.

(* non-vacuity: a diamond below the frontier, heads at different heights, redelivery.
   blocks: 0 genesis; 1,2 children of 0; 3 child of 1 and 2; 4 child of 1 (longer branch) *)
Definition ex_u : universe :=
  [ mkB (-1) 1 [] [] (DStatus false); mkB (-1) 2 [0] [] (DStatus false); mkB (-1) 2 [0] [] (DStatus false);
    mkB (-1) 3 [1; 2] [] (DStatus false); mkB (-1) 3 [1] [] (DStatus false) ]%nat.
Example C01_nonvacuous :
  wfb ex_u = true /\
  r_merged (reach ex_u [ODeliver 4; ODeliver 3; ODeliver 1; ODeliver 3]%nat) = [0; 1; 4; 2; 3]%nat /\
  r_heads (reach ex_u [ODeliver 4; ODeliver 3; ODeliver 1; ODeliver 3]%nat) = [3; 4]%nat /\
  r_merged (reach ex_u [ODeliver 0; ODeliver 3; ODeliver 4]%nat) = [0; 1; 2; 3; 4]%nat.
Proof. vm_compute. repeat split. Qed.
