(* C13 - document, schema and collection identifiers are pure functions of content. *)
From Coq Require Import List ZArith Arith Bool Permutation.
From Verif Require Import DocId DocIdProofs SchemaSets StripProofs.
Import ListNotations.

(* the document id is a function (hash_entries, abstract) of the canonical entry sequence and the schema root; that
   sequence does not depend on the order in which the fields were supplied ... *)
Theorem C13_docid_permutation : forall (V : Type) (is_nil : V -> bool) (B : Type) (hash_entries : list (key * V) -> list Z -> B)
  root (l1 l2 : list (key * V)),
  Permutation l1 l2 -> NoDup (map fst l1) -> docid is_nil hash_entries root l1 = docid is_nil hash_entries root l2.
Proof. exact docid_permutation. Qed.
Print Assumptions C13_docid_permutation.

(* ... nor on whether a nil field is spelt out or omitted *)
Theorem C13_docid_nil_omitted : forall (V : Type) (is_nil : V -> bool) (B : Type) (hash_entries : list (key * V) -> list Z -> B)
  root (l1 l2 : list (key * V)) k v,
  is_nil v = true -> docid is_nil hash_entries root (l1 ++ (k, v) :: l2) = docid is_nil hash_entries root (l1 ++ l2).
Proof. exact docid_nil_omitted. Qed.
Print Assumptions C13_docid_nil_omitted.

(* schema sets: the stripping loop of getSchemaSets ranges over a Go map; for every initial map and any two visiting
   orders, if both executions stopped (a pass without change) they hold the same map - including the effect of the
   coded copy(relations, old[:i-1]), which blanks the entry before the removed one *)
Theorem C13_strip_order_free : forall M0 vs1 vs2,
  stable (fold_left visit vs1 M0) -> stable (fold_left visit vs2 M0) ->
  forall s, get (fold_left visit vs1 M0) s = get (fold_left visit vs2 M0) s.
Proof. exact strip_confluent. Qed.
Print Assumptions C13_strip_order_free.

(* non-vacuity: a map on which the visiting order matters for the intermediate states; both orders stop and agree *)
Example C13_strip_example :
  let M0 := [(0, [Some 1; Some 5]); (1, [Some 0; Some 2]); (2, [Some 3]); (3, [Some 2])] in
  let a := fold_left visit [0; 0; 1; 2; 3; 0; 1] M0 in
  let b := fold_left visit [3; 2; 1; 0; 1; 0; 0; 1] M0 in
  (forall s, s < 6 -> get a s = get b s) /\ get a 2 = Some [Some 3] /\ get a 0 = None.
Proof.
  cbv zeta. split; [|vm_compute; auto].
  intros s Hs. do 6 (destruct s as [|s]; [vm_compute; reflexivity|]).
  apply Nat.ltb_lt in Hs. discriminate Hs.
Qed.
