(* C04 - the commit graph is a well-formed Merkle DAG (the part that is logic: closure and heads).
   Content addressing (block filed under the hash of its bytes), heights of newly written blocks and
   genesis determinism are checked on the implementation by the harness (hash recomputed with SHA-256). *)
From Coq Require Import List.
From Verif Require Import Model Sweep Order Conv Exact.
From Verif Require Sem HeadKeys.
Import ListNotations.

(* at all times the heads are exactly the merged commits that no merged commit names as parent *)
Theorem C04_heads_maximal : forall u ops b, wfb u = true ->
  In b (r_heads (reach u ops)) <->
  (In b (r_merged (reach u ops)) /\ forall x, In x (r_merged (reach u ops)) -> ~ In b (parents u x)).
Proof. exact heads_maximal. Qed.
Print Assumptions C04_heads_maximal.

(* the merged graph is closed under ancestry *)
Theorem C04_closed : forall u ops b p, wfb u = true ->
  In b (r_merged (reach u ops)) -> In p (parents u b) -> In p (r_merged (reach u ops)).
Proof. exact merged_closed. Qed.
Print Assumptions C04_closed.

(* the merge walk visits exactly the unmerged ancestors, each once, parents before children *)
Theorem C04_walk_exact : forall hgt par, (forall b p, In p (par b) -> (hgt p < hgt b)%nat) -> (forall b, (1 <= hgt b)%nat) ->
  forall heads c H, (forall b, In b heads -> (hgt b <= H)%nat) -> (hgt c <= H)%nat ->
  (forall b, In b (sweep hgt par H [c] heads []) <-> (Sweep.Anc par c b /\ ~ Sweep.Merged par heads b)) /\
  NoDup (sweep hgt par H [c] heads []) /\ Sorted.StronglySorted (Sweep.hle hgt) (sweep hgt par H [c] heads []).
Proof.
  intros hgt par wf hpos heads c H Hh Hc. split; [|exact (Sweep.sweep_nodup_sorted hgt par H [c] heads)].
  exact (Sweep.sweep_init hgt par wf hpos heads c H Hh Hc).
Qed.
Print Assumptions C04_walk_exact.

(* field-level heads: the head set of a field is listed by a key prefix; with the closing separator the listing returns
   exactly the keys of that field, for all identifiers (the bare prefix of the pinned code also returned the heads of
   every field whose identifier starts with the same digits - bare_listing_refuted, finding F57) *)
Theorem C04_field_head_listing_exact : forall doc f f' c, ~ In HeadKeys.sep f -> ~ In HeadKeys.sep f' ->
  (Sem.is_prefix (HeadKeys.list_prefix doc f) (HeadKeys.head_key doc f' c) = true <-> f = f').
Proof. exact HeadKeys.listing_exact. Qed.
Print Assumptions C04_field_head_listing_exact.
