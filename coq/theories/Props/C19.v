(* C19 - schema evolution never alters existing data. *)
From Coq Require Import List ZArith Permutation.
From Verif Require Import Model Order Evolve EvolveProofs.
Import ListNotations.

(* any sequence of add-field patches and switches of the active version leaves the applied writes, hence every field
   value of every document, untouched *)
Theorem C19_schema_ops_preserve_data : forall os n, forallb is_schema_op os = true ->
  log (run n os) = log n /\ forall d f, read (log (run n os)) d f = read (log n) d f.
Proof. exact schema_ops_preserve_data. Qed.
Print Assumptions C19_schema_ops_preserve_data.

(* a field that is visible before and after reads the same *)
Theorem C19_view_stable : forall os n d f v, forallb is_schema_op os = true ->
  view n d f = Some v -> memb f (active_fields (run n os)) = true -> view (run n os) d f = Some v.
Proof. exact view_stable_under_schema_ops. Qed.
Print Assumptions C19_view_stable.

(* documents written before a patch read null in the added fields, over every reachable node state *)
Theorem C19_added_field_reads_null : forall n fs sa d f, log_known n ->
  memb f (newest n) = false -> In f fs -> read (log (step n (Patch fs sa))) d f = rnull.
Proof. exact added_field_reads_null. Qed.
Print Assumptions C19_added_field_reads_null.

Theorem C19_log_known_reachable : forall os n, log_known n -> log_known (run n os).
Proof. exact log_known_run. Qed.
Print Assumptions C19_log_known_reachable.

(* two nodes at different versions that were offered the same writes (in any order) agree on every field that both
   have in their active version while the writes arrive; fields outside are ignored and do not disturb the others *)
Theorem C19_common_fields_agree : forall n1 n2 ws1 ws2 d f,
  log n1 = [] -> log n2 = [] -> Permutation ws1 ws2 ->
  memb f (active_fields n1) = true -> memb f (active_fields n2) = true ->
  read (log (run n1 (map Apply ws1))) d f = read (log (run n2 (map Apply ws2))) d f.
Proof. exact common_fields_agree. Qed.
Print Assumptions C19_common_fields_agree.

(* "every field both know" in the wider sense (known through an inactive version) fails: recorded finding *)
Lemma C19_inactive_field_write_lost :
  let n := {| versions := [[0; 1]; [0; 1; 2]]; active := 0; log := [] |} in
  let w := {| w_doc := 0; w_fld := 2; w_val := (1, [7%Z]) |} in
  let writer := {| versions := [[0; 1]; [0; 1; 2]]; active := 1; log := [] |} in
  view (run n [Apply w; Activate 1]) 0 2 = Some rnull /\ view (run writer [Apply w]) 0 2 = Some (1, [7%Z]).
Proof. exact inactive_field_write_lost. Qed.

Example C19_nonvacuous : log_known {| versions := [[0; 1]]; active := 0; log := [] |}.
Proof. intros w H. destruct H. Qed.
