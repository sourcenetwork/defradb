(* A transaction whose operations also write a store that is NOT part of the transaction (C06, finding F62): creating
   a document of a collection under access control registers the document with the access-control engine at once
   (internal/db/collection_acp.go: registerDocWithACP, called from create), while the document itself is written to the
   transaction. A discard (or a lost conflict) drops the document and keeps the registration; a registration makes a
   later create of the same document fail. The model has the two stores and the pinned ordering, plus the ordering that
   defers the registration to the commit. *)
From Coq Require Import List PeanoNat Bool.
Import ListNotations.

Record world := mkW { docs : list nat; registered : list nat }.           (* committed documents; registrations *)
Record txn := mkT { pending : list nat; deferred : list nat }.             (* own creates; registrations to make *)

Definition mem (d : nat) (l : list nat) : bool := existsb (Nat.eqb d) l.

(* create inside a transaction; [eager] = register at once (pinned) *)
Definition create (eager : bool) (w : world) (t : txn) (d : nat) : world * txn * bool :=
  if mem d (registered w) || mem d (deferred t) then (w, t, false)        (* "already registered": refused *)
  else if eager then (mkW (docs w) (d :: registered w), mkT (d :: pending t) (deferred t), true)
  else (w, mkT (d :: pending t) (d :: deferred t), true).
Definition commit (w : world) (t : txn) : world := mkW (pending t ++ docs w) (deferred t ++ registered w).
Definition discard (w : world) (t : txn) : world := w.

Definition empty : txn := mkT [] [].

(* a discarded transaction leaves no trace: with deferred registration the world is untouched and the same create
   succeeds afterwards *)
Theorem deferred_registration_discard_no_trace w d :
  mem d (registered w) = false ->
  let '(w1, t1, ok1) := create false w empty d in
  ok1 = true /\ discard w1 t1 = w /\ snd (create false (discard w1 t1) empty d) = true.
Proof.
  intros H. unfold create, empty. cbn [deferred]. change (mem d []) with false. rewrite H. cbn [orb pending].
  repeat split; auto. unfold discard. rewrite H. reflexivity.
Qed.

(* pinned ordering: after the discard the document does not exist and can never be created again *)
Theorem eager_registration_refuted w d :
  mem d (registered w) = false ->
  let '(w1, t1, ok1) := create true w empty d in
  ok1 = true /\ mem d (docs (discard w1 t1)) = mem d (docs w) /\
  discard w1 t1 <> w /\ snd (create true (discard w1 t1) empty d) = false.
Proof.
  intros H. unfold create, empty. cbn [deferred]. change (mem d []) with false. rewrite H. cbn [orb pending].
  unfold discard. cbn [docs registered]. repeat split; auto.
  - intros E. apply (f_equal (fun w => length (registered w))) in E. exact (Nat.neq_succ_diag_l _ E).
  - unfold mem at 1. cbn [existsb]. rewrite Nat.eqb_refl. reflexivity.
Qed.
