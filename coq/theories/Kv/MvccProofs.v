(* Isolation theorems for the MVCC model, for every interleaving of any number of transactions. *)
From Coq Require Import List Arith Bool Lia Permutation.
From Verif Require Import ListFacts Mvcc.
Import ListNotations.
Local Open Scope nat_scope.

Definition op_txn (o : top) : nat :=
  match o with
  | TBegin t | TRead t _ _ | TWrite t _ _ _ | TCreate t _ _ _ | TDelete t _ _ | TCommit t _ | TDiscard t | TList t _ => t
  end.
Definition is_begin (o : top) : bool := match o with TBegin _ => true | _ => false end.
Definition is_commit (o : top) : bool := match o with TCommit _ _ => true | _ => false end.

Definition step (s : mv) (o : top) : mv := fst (mstep s o).
Definition run (s : mv) (ops : list top) : mv := fold_left step ops s.

Lemma tlook_put_same t x l : tlook t (tput t x l) = Some x.
Proof. unfold tput. cbn. rewrite Nat.eqb_refl. reflexivity. Qed.
Lemma tlook_put_other t t' x l : t' <> t -> tlook t (tput t' x l) = tlook t l.
Proof. intros H. unfold tput. cbn. destruct (Nat.eqb_spec t' t); [contradiction|reflexivity]. Qed.

Lemma gettx_settx_same s t x : gettx (settx s t x) t = x.
Proof. unfold gettx, settx. cbn [m_txs]. rewrite tlook_put_same. reflexivity. Qed.
Lemma gettx_settx_other s t t' x : t' <> t -> gettx (settx s t' x) t = gettx s t.
Proof. intros H. unfold gettx, settx. cbn [m_txs]. rewrite tlook_put_other by assumption. reflexivity. Qed.

(* what an own operation other than begin does to the transaction's record: a function of that record only *)
Definition local (x : tx) (o : top) : tx :=
  match o with
  | TRead _ d _ => mkTx (t_snap x) (t_start x) (d :: t_reads x) (t_writes x) (t_open x)
  | TWrite _ d v _ => if is_some (tview x d)
                      then mkTx (t_snap x) (t_start x) (d :: t_reads x) ((d, Some v) :: t_writes x) (t_open x)
                      else mkTx (t_snap x) (t_start x) (d :: t_reads x) (t_writes x) (t_open x)
  | TCreate _ d v _ => mkTx (t_snap x) (t_start x) (t_reads x) ((d, Some v) :: t_writes x) (t_open x)
  | TDelete _ d _ => if is_some (tview x d)
                     then mkTx (t_snap x) (t_start x) (d :: t_reads x) ((d, None) :: t_writes x) (t_open x)
                     else mkTx (t_snap x) (t_start x) (d :: t_reads x) (t_writes x) (t_open x)
  | TCommit _ _ | TDiscard _ => mkTx (t_snap x) (t_start x) (t_reads x) (t_writes x) false
  | _ => x
  end.

(* The shape of a step: it replaces the record of its own transaction and touches nothing else, except that a listing
   changes nothing at all and a successful commit also publishes the write set. *)
Lemma step_cases s o : let t := op_txn o in let x := gettx s t in
  step s o = settx s t (if is_begin o then mkTx (m_cur s) (m_clock s) [] [] true else local x o) \/
  (step s o = s /\ local x o = x) \/
  ((exists ok, o = TCommit t ok) /\ snd (mstep s o) = POk true /\ step s o = commit_tx s t x).
Proof.
  unfold step. destruct o as [t|t d r|t d v ok|t d v ok|t d ok|t ok|t|t obs]; cbn [mstep op_txn is_begin local];
    try (left; reflexivity).
  - (* update *) left. destruct (is_some _); reflexivity.
  - (* delete *) left. destruct (is_some _); reflexivity.
  - (* commit *) destruct (_ || _); [left; reflexivity | right; right; eauto].
  - (* listing *) right; left; split; reflexivity.
Qed.

Lemma other_step s o t : op_txn o <> t -> gettx (step s o) t = gettx s t.
Proof.
  intros H. destruct (step_cases s o) as [E|[[E _]|(_ & _ & E)]]; rewrite E; [now apply gettx_settx_other | reflexivity |].
  unfold commit_tx, gettx. cbn [m_txs]. now rewrite tlook_put_other.
Qed.

Lemma own_step s o : is_begin o = false -> is_commit o = false ->
  gettx (step s o) (op_txn o) = local (gettx s (op_txn o)) o.
Proof.
  intros Hb Hc. destruct (step_cases s o) as [E|[[E E']|([ok E] & _)]].
  - now rewrite E, gettx_settx_same, Hb.
  - now rewrite E, E'.
  - rewrite E in Hc. discriminate.
Qed.

Definition mine (t : nat) (o : top) : bool := Nat.eqb (op_txn o) t.
Definition quiet (t : nat) (ops : list top) : Prop :=
  forall o, In o ops -> op_txn o = t -> is_begin o = false /\ is_commit o = false.

Lemma run_local t ops : forall s, quiet t ops ->
  gettx (run s ops) t = fold_left local (filter (mine t) ops) (gettx s t).
Proof.
  induction ops as [|o ops IH]; intros s Hq; [reflexivity|].
  cbn [run fold_left filter]. fold (run (step s o) ops). rewrite IH by (intros o' Hin; apply Hq; now right).
  unfold mine at 2. destruct (Nat.eqb_spec (op_txn o) t) as [E|E]; [|now rewrite other_step].
  destruct (Hq o (or_introl eq_refl) E) as [Hb Hc]. subst t. cbn [fold_left]. now rewrite own_step.
Qed.

Definition keeps (x x' : tx) : Prop :=
  t_snap x' = t_snap x /\ t_start x' = t_start x /\ incl (t_writes x) (t_writes x') /\
  (t_open x = false -> t_open x' = false).

Lemma locals_keep l x : keeps x (fold_left local l x).
Proof.
  apply (fold_left_inv (keeps x)); unfold keeps; [|auto using incl_refl].
  intros x' o (H1 & H2 & H3 & H4). destruct o; cbn [local]; try destruct (is_some _);
    cbn [t_snap t_start t_writes t_open]; repeat split; auto; apply incl_tl, H3.
Qed.

Lemma run_keeps t ops s : quiet t ops -> keeps (gettx s t) (gettx (run s ops) t).
Proof. intros Hq. rewrite (run_local t ops s Hq). apply locals_keep. Qed.

(* Between its begin and its commit, the state of a transaction (hence every value it reads) depends only on its
   own operations: two interleavings that agree on the transaction's own operations give it the same view. *)
Theorem snapshot_isolation t s ops1 ops2 : quiet t ops1 -> quiet t ops2 ->
  filter (mine t) ops1 = filter (mine t) ops2 ->
  gettx (run s ops1) t = gettx (run s ops2) t.
Proof. intros H1 H2 E. rewrite (run_local t ops1 s H1), (run_local t ops2 s H2), E. reflexivity. Qed.

(* and the snapshot it reads from is the committed state at the moment it began *)
Theorem snapshot_is_begin_state t s ops : quiet t ops ->
  t_snap (gettx (run (step s (TBegin t)) ops) t) = m_cur s.
Proof.
  intros Hq. rewrite (proj1 (run_keeps t ops _ Hq)). unfold step. cbn [mstep fst]. now rewrite gettx_settx_same.
Qed.

Theorem read_is_view s t d r : snd (mstep s (TRead t d r)) = PVal (tview (gettx s t) d).
Proof. reflexivity. Qed.

(* Atomic visibility: the committed state changes only by a whole write set at a successful commit. *)
Theorem visibility_step s o :
  m_cur (step s o) = m_cur s \/
  (exists t ok, o = TCommit t ok /\ snd (mstep s o) = POk true /\ m_cur (step s o) = t_writes (gettx s t) ++ m_cur s).
Proof.
  destruct (step_cases s o) as [E|[[E _]|([ok Eo] & Hok & E)]]; [left; now rewrite E ..|].
  right. exists (op_txn o), ok. rewrite E. auto.
Qed.

Lemma vlook_app_map d w c rest :
  vlook d (map (fun kv : doc * value => (fst kv, c)) w ++ rest) =
  if existsb (Nat.eqb d) (map fst w) then c else vlook d rest.
Proof.
  induction w as [|[d' v] w IH]; [reflexivity|]. cbn [map app vlook existsb fst].
  rewrite (Nat.eqb_sym d d'). destruct (Nat.eqb d' d); [reflexivity | exact IH].
Qed.

Lemma step_ver s o d : vlook d (m_ver s) <= m_clock s ->
  vlook d (m_ver (step s o)) <= m_clock (step s o) /\ vlook d (m_ver s) <= vlook d (m_ver (step s o)).
Proof.
  intros HI. destruct (step_cases s o) as [E|[[E _]|(_ & _ & E)]]; rewrite E; [split; auto ..|].
  unfold commit_tx. cbn [m_ver m_clock]. rewrite vlook_app_map. destruct (existsb _ _); lia.
Qed.

Lemma run_ver ops s d : vlook d (m_ver s) <= m_clock s -> vlook d (m_ver s) <= vlook d (m_ver (run s ops)).
Proof.
  intros HI.
  apply (fold_left_inv (fun s' => vlook d (m_ver s') <= m_clock s' /\ vlook d (m_ver s) <= vlook d (m_ver s'))); [|auto].
  intros s' o [H1 H2]. destruct (step_ver s' o d H1) as [G1 G2]. split; [exact G1 | exact (Nat.le_trans _ _ _ H2 G2)].
Qed.

Lemma commit_ver s t ok d : snd (mstep s (TCommit t ok)) = POk true -> In d (map fst (t_writes (gettx s t))) ->
  let s' := step s (TCommit t ok) in m_clock s' = S (m_clock s) /\ vlook d (m_ver s') = m_clock s'.
Proof.
  intros Hc Hd. unfold step. cbn [mstep] in *. destruct (_ || _); [discriminate|].
  unfold commit_tx. cbn [fst m_ver m_clock]. rewrite vlook_app_map. apply existsb_eqb_In in Hd. now rewrite Hd.
Qed.

Lemma conflicts_newer s x d : In d (map fst (t_writes x)) -> t_start x < vlook d (m_ver s) -> conflicts s x = true.
Proof.
  intros Hd Hv. unfold conflicts. apply andb_true_intro. split.
  - destruct (t_writes x); [destruct Hd | reflexivity].
  - apply existsb_exists. exists d. split; [apply in_or_app; now right | now apply Nat.ltb_lt].
Qed.

(* T1 and T2 overlap (T2 began before T1 commits), both wrote document d, T1 commits successfully:
   whatever happens afterwards (any operations of any transactions, T2 not beginning anew), T2's commit is refused. *)
Theorem second_writer_refused s t1 t2 d ok1 ops ok2 : t1 <> t2 ->
  In d (map fst (t_writes (gettx s t1))) -> In d (map fst (t_writes (gettx s t2))) ->
  t_start (gettx s t2) <= m_clock s ->
  snd (mstep s (TCommit t1 ok1)) = POk true ->
  quiet t2 ops ->
  snd (mstep (run (step s (TCommit t1 ok1)) ops) (TCommit t2 ok2)) = POk false.
Proof.
  intros Hne H1 H2 Hst Hc Hq. cbn [mstep].
  (* T2's record at its commit still has the start and the write of d that it had in s *)
  destruct (run_keeps t2 ops (step s (TCommit t1 ok1)) Hq) as (_ & Hs & Hw & _).
  rewrite other_step in Hs, Hw by exact Hne.
  (* the version of d was stamped by T1's commit and has not fallen since *)
  destruct (commit_ver s t1 ok1 d Hc H1) as [Hck Hv].
  pose proof (run_ver ops _ d (Nat.eq_le_incl _ _ Hv)) as Hmono.
  rewrite (conflicts_newer _ _ d); [now rewrite orb_true_r | now apply (incl_map fst Hw) | lia].
Qed.

(* [no_lost_update] assumes this bound on the version table; its proof does not use it, and nothing proves it of
   reachable states *)
Definition ver_inv (s : mv) : Prop := forall d, vlook d (m_ver s) <= m_clock s.

Theorem no_lost_update s t1 t2 d ok1 ops ok2 :
  ver_inv s -> t1 <> t2 ->
  In d (map fst (t_writes (gettx s t1))) -> In d (map fst (t_writes (gettx s t2))) ->
  t_start (gettx s t2) <= m_clock s ->
  snd (mstep s (TCommit t1 ok1)) = POk true ->
  quiet t2 ops ->
  snd (mstep (run (step s (TCommit t1 ok1)) ops) (TCommit t2 ok2)) = POk false.
Proof. intros _. apply second_writer_refused. Qed.

Theorem discard_no_trace s t : m_cur (step s (TDiscard t)) = m_cur s /\ m_ver (step s (TDiscard t)) = m_ver s.
Proof. split; reflexivity. Qed.

Theorem discarded_never_commits s t ops ok : quiet t ops ->
  snd (mstep (run (step s (TDiscard t)) ops) (TCommit t ok)) = POk false.
Proof.
  intros Hq. cbn [mstep]. destruct (run_keeps t ops (step s (TDiscard t)) Hq) as (_ & _ & _ & Ho).
  rewrite Ho; [reflexivity|]. unfold step. cbn [mstep fst]. now rewrite gettx_settx_same.
Qed.

Lemma ins_nat_perm y l : Permutation (ins_nat y l) (y :: l).
Proof.
  induction l as [|z l IH]; cbn [ins_nat]; [reflexivity|].
  destruct (y <=? z); [reflexivity|]. rewrite IH. apply perm_swap.
Qed.
Lemma ins_sort_perm l : Permutation (fold_right ins_nat [] l) l.
Proof. induction l as [|y l IH]; cbn [fold_right]; [reflexivity|]. now rewrite ins_nat_perm, IH. Qed.

Lemma keys_of_spec m : forall seen d, In d (keys_of m seen) <-> In d (map fst m) /\ ~ In d seen.
Proof.
  induction m as [|[k v] m IH]; intros seen d; cbn [keys_of map fst In]; [tauto|].
  destruct (existsb (Nat.eqb k) seen) eqn:E.
  - apply existsb_eqb_In in E. rewrite IH. split; [tauto|]. intros [[->|H] Hn]; tauto.
  - apply existsb_eqb_notIn in E. cbn [In]. rewrite IH. cbn [In].
    destruct (Nat.eq_dec k d) as [->|Hne]; [split; auto | tauto].
Qed.

Lemma dlook_in d m v : dlook d m = Some v -> In d (map fst m).
Proof.
  induction m as [|[k w] m IH]; cbn [dlook map fst In]; [discriminate|].
  destruct (Nat.eqb_spec k d) as [->|Hne]; [auto | intros H; right; auto].
Qed.

Lemma tview_dget x d : tview x d = dget d (t_writes x ++ t_snap x).
Proof.
  unfold tview, dget. induction (t_writes x) as [|[k v] w IH]; cbn [dlook app]; [reflexivity|].
  destruct (Nat.eqb k d); [reflexivity | exact IH].
Qed.

Lemma view_docs_spec x d : In d (view_docs x) <-> is_some (tview x d) = true.
Proof.
  unfold view_docs. rewrite ins_sort_perm, filter_In, keys_of_spec.
  split; [tauto|]. intros H. split; auto. split; [|tauto].
  rewrite tview_dget in H. unfold dget in H. destruct (dlook d _) eqn:E; [exact (dlook_in _ _ _ E) | discriminate].
Qed.

(* a listing inside a transaction shows exactly the documents that exist in its view *)
Theorem list_is_view s t obs :
  snd (mstep s (TList t obs)) = PList (view_docs (gettx s t)) /\
  (forall d, In d (view_docs (gettx s t)) <-> is_some (tview (gettx s t) d) = true) /\
  fst (mstep s (TList t obs)) = s.
Proof. split; [reflexivity|]. split; [intros d; apply view_docs_spec | reflexivity]. Qed.

(* what the listing shows depends on the transaction's own operations only *)
Theorem listing_isolated t s ops1 ops2 obs : quiet t ops1 -> quiet t ops2 ->
  filter (mine t) ops1 = filter (mine t) ops2 ->
  snd (mstep (run s ops1) (TList t obs)) = snd (mstep (run s ops2) (TList t obs)).
Proof. intros H1 H2 E. cbn [mstep snd]. now rewrite (snapshot_isolation t s ops1 ops2 H1 H2 E). Qed.
