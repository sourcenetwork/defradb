(* Transactions over a key-value store, as the database uses them for one API call:
   ensureContextTxn creates a transaction, every store operation of the call goes through it, the call's
   deferred Discard drops it, Commit is reached only on the success path, success callbacks (event publication)
   run after a successful commit.  Programs are trees: the continuation of every operation receives the result of
   the operation, which may be an injected failure. *)
From Coq Require Import List ZArith.
Import ListNotations.
Local Open Scope Z_scope.

Definition key := Z.
Definition val := Z.
Definition store := key -> option val.
Definition sempty : store := fun _ => None.
Definition supd (s : store) (k : key) (v : option val) : store := fun k' => if Z.eqb k' k then v else s k'.

(* a transaction: reads see the snapshot overlaid with its own writes *)
Record txn := mkT { snap : store; writes : list (key * option val); callbacks : list Z }.
Definition tbegin (s : store) : txn := mkT s [] [].
Fixpoint wlookup (k : key) (w : list (key * option val)) : option (option val) :=
  match w with
  | [] => None
  | (k', v) :: r => if Z.eqb k' k then Some v else wlookup k r
  end.
Definition tget (t : txn) (k : key) : option val :=
  match wlookup k (writes t) with Some v => v | None => snap t k end.
Definition tset (t : txn) (k : key) (v : option val) : txn := mkT (snap t) ((k, v) :: writes t) (callbacks t).
Definition tcb (t : txn) (e : Z) : txn := mkT (snap t) (writes t) (e :: callbacks t).
(* commit: the write set applied oldest first *)
Definition apply_writes (w : list (key * option val)) (s : store) : store :=
  fold_right (fun kv acc => supd acc (fst kv) (snd kv)) s w.

Inductive prog :=
| Ret (ok : bool)
| PGet (k : key) (cont : option (option val) -> prog)      (* None: the store returned an error *)
| PSet (k : key) (v : option val) (cont : bool -> prog)    (* set / delete; false: the store returned an error *)
| POnSuccess (e : Z) (p : prog).                           (* txn.OnSuccess(publish e) *)

(* a program propagates errors: once a store operation has failed its result is an error *)
Fixpoint fails (p : prog) (fuel : nat) {struct fuel} : Prop :=
  match fuel with
  | O => False
  | S f => match p with
           | Ret ok => ok = false
           | PGet _ c => forall r, fails (c r) f
           | PSet _ _ c => forall r, fails (c r) f
           | POnSuccess _ q => fails q f
           end
  end.
Fixpoint propagates (p : prog) (fuel : nat) {struct fuel} : Prop :=
  match fuel with
  | O => False
  | S f => match p with
           | Ret _ => True
           | PGet _ c => fails (c None) f /\ forall r, propagates (c (Some r)) f
           | PSet _ _ c => fails (c false) f /\ propagates (c true) f
           | POnSuccess _ q => propagates q f
           end
  end.

(* fault schedule: which operation index fails *)
Definition sched := nat -> bool.

Record rres := mkRes { r_ok : bool; r_txn : txn; r_n : nat; r_hit : bool }.

Fixpoint run (p : prog) (fuel : nat) (sc : sched) (n : nat) (t : txn) (hit : bool) {struct fuel} : rres :=
  match fuel with
  | O => mkRes false t n hit
  | S f => match p with
           | Ret ok => mkRes ok t n hit
           | PGet k c => if sc n then run (c None) f sc (S n) t true else run (c (Some (tget t k))) f sc (S n) t hit
           | PSet k v c => if sc n then run (c false) f sc (S n) t true else run (c true) f sc (S n) (tset t k v) hit
           | POnSuccess e q => run q f sc n (tcb t e) hit
           end
  end.

(* the API call: implicit transaction, deferred discard, commit on the success path (it can fail too),
   callbacks after a successful commit. Result: (reported ok, store afterwards, events published) *)
Definition call (p : prog) (fuel : nat) (sc : sched) (s : store) : bool * store * list Z :=
  let r := run p fuel sc O (tbegin s) false in
  if r_ok r then (if sc (r_n r) then (false, s, []) else (true, apply_writes (writes (r_txn r)) s, rev (callbacks (r_txn r))))
  else (false, s, []).

Definition no_fault : sched := fun _ => false.

Lemma fails_run fuel : forall p sc n t hit, fails p fuel -> r_ok (run p fuel sc n t hit) = false.
Proof.
  induction fuel as [|f IH]; intros p sc n t hit H; [destruct H|].
  destruct p as [ok|k c|k v c|e q]; cbn [run fails r_ok] in *; [exact H | | | apply IH, H].
  all: destruct (sc n); apply IH, H.
Qed.

Lemma run_faulty fuel : forall p sc n t hit, propagates p fuel ->
  r_ok (run p fuel sc n t hit) = false \/ run p fuel sc n t hit = run p fuel no_fault n t hit.
Proof.
  induction fuel as [|f IH]; intros p sc n t hit H; [right; reflexivity|].
  destruct p as [ok|k c|k v c|e q]; cbn [run propagates] in *; [right; reflexivity | | | apply IH, H].
  all: destruct H as [Hf Hp]; unfold no_fault at 1; destruct (sc n); [left; apply fails_run, Hf | apply IH, Hp].
Qed.

Theorem all_or_nothing p fuel sc s : propagates p fuel ->
  let '(ok, s', evs) := call p fuel sc s in
  (ok = false /\ s' = s /\ evs = []) \/
  (ok = true /\ (ok, s', evs) = call p fuel no_fault s).
Proof.
  intros Hp. unfold call. destruct (run_faulty fuel p sc 0%nat (tbegin s) false Hp) as [E|E].
  - rewrite E. left; auto.
  - rewrite <- E. destruct (r_ok _); [|left; auto]. destruct (sc _); [left; auto | right; auto].
Qed.

(* events are published iff the change was committed, and then exactly the registered callbacks *)
Theorem events_iff_commit p fuel sc s :
  let '(ok, s', evs) := call p fuel sc s in ok = false -> evs = [] /\ s' = s.
Proof.
  unfold call. destruct (r_ok _); [destruct (sc _)|]; intros H; try discriminate; auto.
Qed.

(* a program that swallows the failure of one write reports success with a partial write set:
   the shape of F5 / F6 *)
Definition swallow : prog :=
  PSet 1 (Some 10) (fun _ => PSet 2 (Some 20) (fun ok2 => Ret true)).
Example swallow_refuted :
  let '(ok, s', _) := call swallow 5 (fun i => Nat.eqb i 1) sempty in
  ok = true /\ s' 1 = Some 10 /\ s' 2 = None.
Proof. vm_compute. auto. Qed.

(* non-vacuity: a create-like program (check absence, write two keys, publish) propagates errors *)
Definition create_like : prog :=
  PGet 1 (fun r => match r with
    | None => Ret false
    | Some (Some _) => Ret false                                   (* already exists *)
    | Some None => PSet 1 (Some 10) (fun ok => if ok then
                     PSet 2 (Some 20) (fun ok2 => if ok2 then POnSuccess 7 (Ret true) else Ret false)
                     else Ret false)
    end).
Example create_like_propagates : propagates create_like 6.
Proof. split; [reflexivity|]. intros [v|]; [exact I|]. repeat split. Qed.
