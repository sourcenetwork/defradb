(* Concurrent use of one node (C16), at the level of one document: goroutines run read-modify-write transactions
   with optimistic conflict detection (Badger: a commit fails when a key read by the transaction was written by a
   transaction that committed after the reader began).  A schedule is any interleaving of Begin / Commit events of any
   number of attempts; an attempt adds its delta (a counter increment) on top of the value it read.
   Theorem: whatever the schedule, the final value is the initial value plus the deltas of exactly the attempts whose
   commit succeeded; an attempt that reported a conflict has no effect. *)
From Coq Require Import List ZArith Lia.
From Verif Require Import ListFacts.
Import ListNotations.
Open Scope Z_scope.

Record store := { value : Z; version : nat }.                       (* version = number of commits so far *)

Inductive event :=
| Begin (a : nat)                                                    (* attempt a takes its snapshot *)
| Commit (a : nat) (delta : Z).                                      (* attempt a tries to commit snapshot value + delta *)

(* snapshots: attempt -> (value, version) it read *)
Definition snaps := list (nat * (Z * nat)).
Fixpoint snap_of (sn : snaps) (a : nat) : option (Z * nat) :=
  match sn with [] => None | (b, s) :: r => if Nat.eqb b a then Some s else snap_of r a end.

Record state := { st : store; sn : snaps; ok : list (nat * Z); failed : list nat }.

Definition step (s : state) (e : event) : state :=
  match e with
  | Begin a => {| st := st s; sn := (a, (value (st s), version (st s))) :: sn s; ok := ok s; failed := failed s |}
  | Commit a d =>
      match snap_of (sn s) a with
      | None => s                                                     (* commit without begin: not an attempt *)
      | Some (v0, ver0) =>
          if Nat.eqb ver0 (version (st s))
          then {| st := {| value := v0 + d; version := S (version (st s)) |}; sn := sn s; ok := (a, d) :: ok s; failed := failed s |}
          else {| st := st s; sn := sn s; ok := ok s; failed := a :: failed s |}   (* conflict: nothing written *)
      end
  end.

Definition run (s : state) (es : list event) : state := fold_left step es s.
Definition start (v : Z) : state := {| st := {| value := v; version := 0 |}; sn := []; ok := []; failed := [] |}.

Definition sum_ok (l : list (nat * Z)) : Z := fold_right (fun p acc => snd p + acc) 0 l.

Definition Inv (v0 : Z) (s : state) : Prop :=
  value (st s) = v0 + sum_ok (ok s) /\
  forall a v ver, snap_of (sn s) a = Some (v, ver) ->
    (ver <= version (st s))%nat /\ (ver = version (st s) -> v = value (st s)).

Lemma inv_step v0 s e : Inv v0 s -> Inv v0 (step s e).
Proof.
  intros [H1 H2]. destruct e as [a|a d]; cbn [step].
  - split; [exact H1|]. cbn [st sn snap_of]. intros b v ver. destruct (Nat.eqb a b); [|apply H2].
    intros [= <- <-]. auto.
  - destruct (snap_of (sn s) a) as [[v ver]|] eqn:Es; [|split; assumption].
    destruct (Nat.eqb_spec ver (version (st s))) as [Ev|Ev]; [|split; assumption].
    (* the attempt read the current value, and every snapshot is now older than the store *)
    split; cbn [st sn ok value version sum_ok fold_right snd].
    + fold (sum_ok (ok s)). rewrite (proj2 (H2 a v ver Es) Ev). lia.
    + intros b v' ver' Hs. destruct (H2 b v' ver' Hs) as [Hle _]. lia.
Qed.

Theorem no_committed_effect_lost : forall v0 es,
  value (st (run (start v0) es)) = v0 + sum_ok (ok (run (start v0) es)).
Proof.
  intros v0 es. apply (fold_left_inv (Inv v0) step (inv_step v0)).
  split; [cbn; lia | discriminate].
Qed.

Theorem conflict_has_no_effect : forall s a d v ver,
  snap_of (sn s) a = Some (v, ver) -> ver <> version (st s) -> st (step s (Commit a d)) = st s.
Proof.
  intros s a d v ver Hs Hv. cbn [step]. rewrite Hs. apply Nat.eqb_neq in Hv. now rewrite Hv.
Qed.

Example interleaving :
  let s := run (start 10) [Begin 1; Begin 2; Commit 1 5; Commit 2 7; Begin 3; Commit 3 1] in
  value (st s) = 16 /\ failed s = [2%nat].
Proof. vm_compute. auto. Qed.
