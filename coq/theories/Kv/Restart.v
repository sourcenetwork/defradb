(* A node = persistent store + volatile caches rebuilt from the store when the node is opened (internal/db/db.go:
   initialize / loadSchema; description caches; sequences are read from the store on every use).
   Operations transform the store (one atomic commit each) and update the caches in place; queries are answered from
   both.  The caches are an abstract function [load] of the store; what the code must guarantee - and what the
   correspondence run checks on real nodes after every operation - is that the in-place update of every operation
   produces exactly what [load] would rebuild. *)
From Coq Require Import List.
Import ListNotations.

Section Restart.
  Variables store cache op query result : Type.
  Variable load : store -> cache.
  Variable apply_store : op -> store -> store.
  Variable apply_cache : op -> store -> cache -> cache.          (* in-place cache maintenance of the running node *)
  Variable answer : store -> cache -> query -> result.

  Record node := { n_store : store; n_cache : cache }.
  Definition open (s : store) : node := {| n_store := s; n_cache := load s |}.
  Definition coherent (n : node) : Prop := n_cache n = load (n_store n).

  Inductive event := Do (o : op) | Restart | Ask (q : query).

  Definition step (n : node) (e : event) : node * list result :=
    match e with
    | Do o => ({| n_store := apply_store o (n_store n); n_cache := apply_cache o (n_store n) (n_cache n) |}, [])
    | Restart => (open (n_store n), [])
    | Ask q => (n, [answer (n_store n) (n_cache n) q])
    end.

  Fixpoint run (n : node) (es : list event) : node * list result :=
    match es with
    | [] => (n, [])
    | e :: r => let '(n1, o1) := step n e in let '(n2, o2) := run n1 r in (n2, o1 ++ o2)
    end.

  (* the history without its restarts: what the twin that never stopped executes *)
  Definition strip (es : list event) : list event :=
    filter (fun e => match e with Restart => false | _ => true end) es.

  (* the obligation on the code: every operation leaves the caches as a fresh load would build them *)
  Hypothesis op_coherent : forall o s, apply_cache o s (load s) = load (apply_store o s).

  Lemma step_coherent n e : coherent n -> coherent (fst (step n e)).
  Proof.
    unfold coherent. destruct e as [o| |q]; cbn [step fst n_store n_cache open]; auto.
    intros H. rewrite H. apply op_coherent.
  Qed.

  Lemma run_coherent es : forall n, coherent n -> coherent (fst (run n es)).
  Proof.
    induction es as [|e es IH]; intros n H; cbn [run]; [exact H|].
    apply (step_coherent n e), IH in H. destruct (step n e) as [m o]. cbn [fst] in H. now destruct (run m es).
  Qed.

  Lemma open_coherent n : coherent n -> open (n_store n) = n.
  Proof. destruct n. unfold coherent, open. cbn. now intros ->. Qed.

  Theorem restart_bisimulation : forall es n, coherent n ->
    run n es = run n (strip es).
  Proof.
    induction es as [|e es IH]; intros n Hc; [reflexivity|].
    pose proof (step_coherent n e Hc) as Hc1.
    destruct e as [o| |q]; cbn [strip filter run]; fold (strip es).
    2: { cbn [step]. rewrite (open_coherent n Hc), <- (IH n Hc). now destruct (run n es). }
    all: destruct (step n _) as [n1 o1]; now rewrite (IH n1 Hc1).
  Qed.

  Corollary open_at_any_commit : forall es1 es2 s0,
    let n1 := fst (run (open s0) es1) in
    run (open (n_store n1)) es2 = run n1 es2.
  Proof. intros es1 es2 s0 n1. now rewrite open_coherent by (apply run_coherent; reflexivity). Qed.
End Restart.

(* identifier sequences (internal/db/sequence/sequence.go): read, +1, write, inside the caller's transaction *)
Definition seq_next (s : nat) : nat * nat := (S s, S s).          (* new stored value, issued id *)

Inductive sev := Issue | Reopen.
Fixpoint seq_run (s : nat) (es : list sev) : list nat :=
  match es with
  | [] => []
  | Issue :: r => let '(s', id) := seq_next s in id :: seq_run s' r
  | Reopen :: r => seq_run s r                                     (* nothing is cached: reopening changes nothing *)
  end.

(* the ids issued are the consecutive numbers after the stored value, wherever the store is reopened *)
Lemma seq_run_seq es : forall s,
  seq_run s es = seq (S s) (length (filter (fun e => match e with Issue => true | Reopen => false end) es)).
Proof.
  induction es as [|[|] es IH]; intros s; cbn [seq_run seq_next filter length seq]; [reflexivity | f_equal |]; apply IH.
Qed.

Theorem seq_never_reused : forall s es, NoDup (seq_run s es).
Proof. intros s es. rewrite seq_run_seq. apply seq_NoDup. Qed.
