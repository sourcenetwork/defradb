(* Index creation against concurrent document creation, as snapshot transactions (C16, C07).
   Query/IndexMaint.v proves that the entries of an index are exactly the live documents when every operation is atomic
   with respect to the others. Here the two operations are transactions on a store with snapshot reads and a conflict
   check on the keys a transaction READ (Badger): building the index reads the documents that exist in its snapshot and
   writes one entry for each plus the index description; creating a document reads the index descriptions of its
   snapshot and writes the document plus one entry per index it saw. Neither reads a key the other writes, so both
   commit - and the document created in between has no entry. The pinned code behaves like this model (witness in the
   concurrency engine; recorded finding). *)
From Coq Require Import List PeanoNat.
Import ListNotations.

Record store := mkS { docs : list nat; entries : list nat; indexed : bool }.
Record pending := mkP { build_snap : option (list nat);            (* documents seen by the index build in flight *)
                        create_snap : list (nat * bool) }.         (* creates in flight: document, "saw the index" *)
Inductive ev := BeginBuild | CommitBuild | BeginCreate (d : nat) | CommitCreate (d : nat).

Fixpoint saw (d : nat) (l : list (nat * bool)) : option bool :=
  match l with [] => None | (d', b) :: r => if Nat.eqb d' d then Some b else saw d r end.

Definition step (sp : store * pending) (e : ev) : store * pending :=
  let (s, p) := sp in
  match e with
  | BeginBuild => (s, mkP (Some (docs s)) (create_snap p))
  | CommitBuild => match build_snap p with
                   | Some seen => (mkS (docs s) (entries s ++ seen) true, mkP None (create_snap p))
                   | None => sp
                   end
  | BeginCreate d => (s, mkP (build_snap p) ((d, indexed s) :: create_snap p))
  | CommitCreate d => match saw d (create_snap p) with
                      | Some b => (mkS (d :: docs s) (if b then d :: entries s else entries s) (indexed s), p)
                      | None => sp
                      end
  end.
Definition run (es : list ev) : store * pending := fold_left step es (mkS [] [] false, mkP None []).

(* what IndexMaint proves for atomic operations *)
Definition consistent (s : store) : Prop := indexed s = true -> forall d, In d (docs s) -> In d (entries s).

(* both transactions commit (nothing either of them read was written by the other) and the document has no entry *)
Lemma index_build_race_refuted :
  let s := fst (run [BeginBuild; BeginCreate 1; CommitCreate 1; CommitBuild]) in
  indexed s = true /\ In 1 (docs s) /\ ~ In 1 (entries s).
Proof. vm_compute. split; [reflexivity|]. split; [left; reflexivity|]. intros []. Qed.

Lemma index_build_race_other_order_refuted :
  let s := fst (run [BeginCreate 1; BeginBuild; CommitBuild; CommitCreate 1]) in
  indexed s = true /\ In 1 (docs s) /\ ~ In 1 (entries s).
Proof. vm_compute. split; [reflexivity|]. split; [left; reflexivity|]. intros []. Qed.

(* without overlap the result is consistent: the create that begins after the build committed sees the index *)
Example index_build_serial_ok :
  let s := fst (run [BeginCreate 1; CommitCreate 1; BeginBuild; CommitBuild; BeginCreate 2; CommitCreate 2]) in
  indexed s = true /\ (forall d, In d (docs s) -> In d (entries s)).
Proof. vm_compute. split; [reflexivity|]. intros d [<-|[<-|[]]]; auto. Qed.
