(* The canonical key order is a total order on field names, so inserting two entries with different names commutes
   and [isort] gives the same sequence on every permutation of a list in which no name occurs twice. *)
From Coq Require Import List ZArith Lia Permutation.
From Verif Require Import DocId ListFacts.
From Verif Require Bytes.
Import ListNotations.

(* [lex_le] is "not greater" under [bcmp]: one lexicographic order on [list Z], whose order facts are in Bytes.v *)
Lemma lex_le_bcmp a : forall b, lex_le a b = true <-> Bytes.bcmp a b <> Gt.
Proof.
  induction a as [|x a IH]; intros [|y b]; cbn [lex_le Bytes.bcmp]; try (split; congruence).
  destruct (Z.compare_spec x y), (Z.ltb_spec x y), (Z.ltb_spec y x); try lia; [apply IH | split; congruence ..].
Qed.

Lemma lex_le_total a b : lex_le a b = true \/ lex_le b a = true.
Proof.
  rewrite !lex_le_bcmp, (Bytes.bcmp_antisym a b). destruct (Bytes.bcmp a b); cbn; [left|left|right]; congruence.
Qed.

Lemma lex_le_antisym a b : lex_le a b = true -> lex_le b a = true -> a = b.
Proof.
  rewrite !lex_le_bcmp, (Bytes.bcmp_antisym a b). intros H1 H2. apply Bytes.bcmp_eq.
  destruct (Bytes.bcmp a b); cbn in *; congruence.
Qed.

Lemma lex_le_trans a b c : lex_le a b = true -> lex_le b c = true -> lex_le a c = true.
Proof. rewrite !lex_le_bcmp. apply Bytes.bcmp_le_trans. Qed.

Lemma key_le_iff a b : key_le a b = true <-> length a < length b \/ (length a = length b /\ lex_le a b = true).
Proof.
  unfold key_le. destruct (Nat.ltb_spec (length a) (length b)), (Nat.ltb_spec (length b) (length a));
    intuition (lia || discriminate).
Qed.

Lemma key_le_total a b : key_le a b = true \/ key_le b a = true.
Proof.
  destruct (Nat.lt_trichotomy (length a) (length b)) as [H|[H|H]].
  - left. apply key_le_iff. auto.
  - destruct (lex_le_total a b); [left|right]; apply key_le_iff; auto.
  - right. apply key_le_iff. auto.
Qed.

Lemma key_le_antisym a b : key_le a b = true -> key_le b a = true -> a = b.
Proof. intros [H1|[E1 H1]]%key_le_iff [H2|[E2 H2]]%key_le_iff; try lia. now apply lex_le_antisym. Qed.

Lemma key_le_trans a b c : key_le a b = true -> key_le b c = true -> key_le a c = true.
Proof.
  intros [H1|[H1 L1]]%key_le_iff [H2|[H2 L2]]%key_le_iff; apply key_le_iff; [left; lia ..|right].
  split; [lia | eapply lex_le_trans; eauto].
Qed.

Section Proofs.
  Variable V : Type.
  Notation entry := (key * V)%type.

  Lemma insert_comm_le (x y : entry) l :
    key_le (fst x) (fst y) = true -> fst x <> fst y -> insert x (insert y l) = insert y (insert x l).
  Proof.
    intros Hxy Hne.
    assert (Hyx : key_le (fst y) (fst x) = false).
    { destruct (key_le (fst y) (fst x)) eqn:E; auto. destruct Hne. now apply key_le_antisym. }
    induction l as [|z l IH]; cbn [insert].
    - now rewrite Hxy, Hyx.
    - destruct (key_le (fst y) (fst z)) eqn:Eyz.
      + cbn [insert]. rewrite Hxy, (key_le_trans _ _ _ Hxy Eyz). cbn [insert]. now rewrite Hyx, Eyz.
      + destruct (key_le (fst x) (fst z)) eqn:Exz; cbn [insert].
        * now rewrite Exz, Hyx, Eyz.
        * now rewrite Exz, Eyz, IH.
  Qed.

  Lemma insert_comm (x y : entry) l : fst x <> fst y -> insert x (insert y l) = insert y (insert x l).
  Proof.
    intros Hne. destruct (key_le_total (fst x) (fst y)); [|symmetry]; apply insert_comm_le; auto.
  Qed.

  (* [NoDup (map fst l1)]: the fields are the entries of a Go map, a name occurs once (of two entries with the same
     name the one inserted last would come first) *)
  Lemma isort_perm (l1 l2 : list entry) : Permutation l1 l2 -> NoDup (map fst l1) -> isort l1 = isort l2.
  Proof.
    induction 1 as [|x l l' Hp IH|x y l|l l' l'' Hp1 IH1 Hp2 IH2]; intros Hnd; cbn [isort map] in *; auto.
    - inversion Hnd; subst. f_equal; auto.
    - apply insert_comm. inversion Hnd as [|? ? Hn _]; subst. intros E. apply Hn. left. auto.
    - rewrite IH1 by auto. apply IH2. eapply Permutation_NoDup; [|exact Hnd]. now apply Permutation_map.
  Qed.

  Variable is_nil : V -> bool.

  (* the canonical sequence does not depend on the order in which the fields were given ... *)
  Theorem canon_permutation (l1 l2 : list entry) :
    Permutation l1 l2 -> NoDup (map fst l1) -> canon is_nil l1 = canon is_nil l2.
  Proof.
    intros Hp Hnd. unfold canon. apply isort_perm; [now apply filter_perm | now apply NoDup_map_filter].
  Qed.

  (* ... nor on whether a nil-valued field is present or omitted *)
  Theorem canon_nil_omitted (l1 l2 : list entry) k v :
    is_nil v = true -> canon is_nil (l1 ++ (k, v) :: l2) = canon is_nil (l1 ++ l2).
  Proof.
    intros Hn. unfold canon. rewrite !filter_app. cbn [filter snd]. now rewrite Hn.
  Qed.

  Variable B : Type.
  Variable hash_entries : list entry -> list Z -> B.

  Theorem docid_permutation root (l1 l2 : list entry) :
    Permutation l1 l2 -> NoDup (map fst l1) -> docid is_nil hash_entries root l1 = docid is_nil hash_entries root l2.
  Proof. intros. unfold docid. f_equal. now apply canon_permutation. Qed.

  Theorem docid_nil_omitted root (l1 l2 : list entry) k v :
    is_nil v = true -> docid is_nil hash_entries root (l1 ++ (k, v) :: l2) = docid is_nil hash_entries root (l1 ++ l2).
  Proof. intros. unfold docid. f_equal. now apply canon_nil_omitted. Qed.
End Proofs.
