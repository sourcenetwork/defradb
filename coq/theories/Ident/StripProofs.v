(* The stripping loop of getSchemaSets ranges over a Go map, whose iteration order is random.  Theorem: whatever the
   order of visits, once the loop stops (a pass without change) the map is the same.  The idea: a stopped state holds,
   per key, a suffix of the list that any state reachable from the same start holds ([above]), since a visit only
   removes entries in front of such a suffix; two stopped states are then below each other. *)
From Coq Require Import List Arith.
From Verif Require Import SchemaSets ListFacts.
Import ListNotations.

Lemma get_set_same M s v : get (set M s v) s = Some v.
Proof.
  induction M as [|[k w] M IH]; cbn [set get]; [now rewrite Nat.eqb_refl|].
  destruct (Nat.eqb k s) eqn:E; cbn [get]; rewrite E; auto.
Qed.
Lemma get_set_other M s v s' : s' <> s -> get (set M s v) s' = get M s'.
Proof.
  intros Hne. induction M as [|[k w] M IH]; cbn [set get].
  - destruct (Nat.eqb_spec s s'); congruence.
  - destruct (Nat.eqb_spec k s); cbn [get]; destruct (Nat.eqb_spec k s'); congruence.
Qed.
Lemma get_del_same M s : get (del M s) s = None.
Proof.
  induction M as [|[k w] M IH]; cbn [del get]; auto. destruct (Nat.eqb k s) eqn:E; cbn [get]; rewrite ?E; auto.
Qed.
Lemma get_del_other M s s' : s' <> s -> get (del M s) s' = get M s'.
Proof.
  intros Hne. induction M as [|[k w] M IH]; cbn [del get]; auto.
  destruct (Nat.eqb_spec k s); cbn [get]; destruct (Nat.eqb_spec k s'); congruence.
Qed.

Lemma visit_other M s s' : s' <> s -> get (visit M s) s' = get M s'.
Proof.
  intros Hne. unfold visit. destruct (get M s) as [l|]; auto.
  destruct (first_rem M l) as [i|].
  - destruct (slip l i); [now apply get_del_other | now apply get_set_other].
  - destruct l; auto. now apply get_del_other.
Qed.

(* at the visited key: the first removable entry is slipped out, and an empty list leaves the map *)
Definition slip_first (M : smap) (l : list rel) : list rel :=
  match first_rem M l with Some i => slip l i | None => l end.

Lemma get_visit_same M s : get (visit M s) s =
  match get M s with
  | None => None
  | Some l => match slip_first M l with [] => None | l' => Some l' end
  end.
Proof.
  unfold visit, slip_first. destruct (get M s) as [l|] eqn:E; [|exact E]. destruct (first_rem M l) as [i|].
  - destruct (slip l i); [apply get_del_same | apply get_set_same].
  - destruct l; [apply get_del_same | exact E].
Qed.

Lemma first_rem_some M l i : first_rem M l = Some i ->
  exists a x b, l = a ++ x :: b /\ length a = i /\ removable M x = true /\ Forall (fun e => removable M e = false) a.
Proof.
  revert i. induction l as [|e l IH]; intros i H; cbn [first_rem] in H; [discriminate|].
  destruct (removable M e) eqn:E.
  - injection H as <-. exists [], e, l. auto.
  - destruct (first_rem M l) as [j|]; [|discriminate]. injection H as <-.
    destruct (IH j eq_refl) as [a [x [b [-> [<- [Hx Ha]]]]]]. exists (e :: a), x, b. auto.
Qed.
Lemma first_rem_none M l : first_rem M l = None <-> Forall (fun e => removable M e = false) l.
Proof.
  split.
  - induction l as [|e l IH]; cbn [first_rem]; intros H; [constructor|].
    destruct (removable M e) eqn:E; [discriminate|]. destruct (first_rem M l); [discriminate|]. auto.
  - induction 1 as [|e l He _ IH]; cbn [first_rem]; [reflexivity|]. now rewrite He, IH.
Qed.
Lemma first_rem_app_l M a x b : Forall (fun e => removable M e = false) a -> removable M x = true ->
  first_rem M (a ++ x :: b) = Some (length a).
Proof.
  induction a as [|e a IH]; intros Ha Hx; cbn [app first_rem length]; [now rewrite Hx|].
  inversion Ha as [|? ? He Ha']; subst. rewrite He, IH; auto.
Qed.

Lemma slip_app (a : list rel) x b :
  slip (a ++ x :: b) (length a) = match a with [] => b | _ => removelast a ++ None :: b end.
Proof.
  unfold slip. rewrite skipn_app, skipn_all2, Nat.sub_succ_l, Nat.sub_diag by auto. cbn [skipn app].
  destruct a as [|e a]; auto. cbn [length]. rewrite removelast_firstn_len, firstn_app. cbn [length pred].
  now rewrite Nat.sub_succ_r, Nat.sub_diag, <- !app_assoc.
Qed.

Lemma app_cons_eq_app {A} (a b p q : list A) x :
  a ++ x :: b = p ++ q -> ~ In x q -> exists c, p = a ++ x :: c /\ b = c ++ q.
Proof.
  intros H Hx. apply app_eq_app in H. destruct H as [m [[-> ->]|[-> H]]].
  - destruct Hx. apply in_elt.
  - destruct m as [|y m]; cbn [app] in H.
    + destruct Hx. subst q. now left.
    + injection H as <- ->. eauto.
Qed.

Definition suffix (q l : list rel) : Prop := exists p, l = p ++ q.

Lemma suffix_slip_first M l q : suffix q l -> Forall (fun e => removable M e = false) q -> suffix q (slip_first M l).
Proof.
  intros [p Hp] Hq. unfold slip_first. destruct (first_rem M l) as [i|] eqn:Ef; [|now exists p].
  destruct (first_rem_some _ _ _ Ef) as [a [x [b [H1 [<- [Hx _]]]]]].
  rewrite H1, slip_app. rewrite H1 in Hp. apply app_cons_eq_app in Hp as [c [_ ->]].
  - destruct a as [|e a]; [now exists c | exists (removelast (e :: a) ++ None :: c); now rewrite <- app_assoc].
  - intros Hin. rewrite Forall_forall in Hq. rewrite (Hq x Hin) in Hx. discriminate.
Qed.

Lemma slip_first_suffix M l q : suffix q (slip_first M l) -> ~ In None q -> suffix q l.
Proof.
  unfold slip_first. destruct (first_rem M l) as [i|]; [|auto]. intros [p Hp] Hq. unfold slip in Hp.
  assert (suffix q (skipn (S i) l)) as [r Hr].
  { destruct i as [|j]; [now exists p|]. rewrite <- app_assoc in Hp. cbn [app] in Hp.
    apply app_cons_eq_app in Hp as [c [_ Hc]]; [now exists c | assumption]. }
  exists (firstn (S i) l ++ r). now rewrite <- app_assoc, <- Hr, firstn_skipn.
Qed.

Definition above (M T : smap) : Prop := forall s lt, get T s = Some lt -> exists pre, get M s = Some (pre ++ lt).

Lemma above_refl M : above M M.
Proof. intros s lt H. exists []. auto. Qed.

Lemma stable_not_removable M T s lt : above M T -> stable T -> get T s = Some lt ->
  Forall (fun e => removable M e = false) lt.
Proof.
  intros Hab Hst Ht. destruct (Hst s lt Ht) as [_ Hn]. apply first_rem_none in Hn.
  eapply Forall_impl; [|exact Hn]. intros e He. unfold removable in *.
  destruct e as [t|]; [|discriminate]. destruct (get T t) as [l'|] eqn:E; [|discriminate].
  destruct (Hab t l' E) as [pre Hp]. now rewrite Hp.
Qed.

Lemma above_visit M T s : above M T -> stable T -> above (visit M s) T.
Proof.
  intros Hab Hst s' lt Ht. destruct (Nat.eq_dec s' s) as [->|Hne].
  2:{ rewrite visit_other by auto. now apply Hab. }
  destruct (Hab s lt Ht) as [pre Hm]. rewrite get_visit_same, Hm.
  destruct (suffix_slip_first M (pre ++ lt) lt) as [pre' ->];
    [now exists pre | now apply (stable_not_removable M T s) |].
  (* not empty, since [lt] is not: the key stays *)
  destruct (pre' ++ lt) eqn:E; [|rewrite <- E; eauto].
  apply app_eq_nil in E. destruct (Hst s lt Ht) as [Hne _]. tauto.
Qed.

(* a reachable list keeps this much of the original: its suffixes without a blank are suffixes there *)
Definition inv (M0 M : smap) : Prop := forall s lm, get M s = Some lm ->
  exists l0, get M0 s = Some l0 /\ forall q, suffix q lm -> ~ In None q -> suffix q l0.

Lemma inv_visit M0 M s : inv M0 M -> inv M0 (visit M s).
Proof.
  intros Hi s' lm Hg. destruct (Nat.eq_dec s' s) as [->|Hne].
  2:{ rewrite visit_other in Hg by auto. now apply Hi. }
  rewrite get_visit_same in Hg. destruct (get M s) as [l|] eqn:El; [|discriminate].
  destruct (Hi s l El) as [l0 [H0 Hsh]]. exists l0. split; auto. intros q Hs Hq. apply Hsh; auto.
  destruct (slip_first M l) as [|e l'] eqn:E; [discriminate|].
  injection Hg as <-. rewrite <- E in Hs. now apply (slip_first_suffix M).
Qed.

Lemma inv_refl M : inv M M.
Proof. intros s lm H. eauto. Qed.

Lemma stable_below M0 T : inv M0 T -> stable T -> above M0 T.
Proof.
  intros Hi Hst s lt Ht. destruct (Hi s lt Ht) as [l0 [H0 Hsh]]. destruct (Hst s lt Ht) as [_ Hn].
  destruct (Hsh lt) as [pre ->]; [now exists [] | | eauto].
  apply first_rem_none in Hn. rewrite Forall_forall in Hn. intros Hin. discriminate (Hn _ Hin).
Qed.

Lemma above_antisym T1 T2 : above T1 T2 -> above T2 T1 -> forall s, get T1 s = get T2 s.
Proof.
  intros H12 H21 s. destruct (get T1 s) as [l1|] eqn:E1.
  - (* T2 holds p ++ l1, so T1 holds q ++ p ++ l1, which is l1 *)
    destruct (H21 s l1 E1) as [p Hp]. destruct (H12 s _ Hp) as [q Hq]. rewrite E1 in Hq. injection Hq as Hq.
    rewrite app_assoc in Hq. apply (app_inv_tail l1 []) in Hq. symmetry in Hq.
    apply app_eq_nil in Hq as [_ ->]. now symmetry.
  - destruct (get T2 s) as [l2|] eqn:E2; [|reflexivity]. destruct (H12 s l2 E2) as [p Hp]. congruence.
Qed.

Lemma stopped_below M0 vs vs' :
  stable (fold_left visit vs' M0) -> above (fold_left visit vs M0) (fold_left visit vs' M0).
Proof.
  intros Hst. apply (fold_left_inv (fun M => above M _)); [intros M s H; now apply above_visit|].
  apply stable_below; [|assumption]. apply (fold_left_inv (inv M0)); [intros M s; apply inv_visit | apply inv_refl].
Qed.

(* Any two executions of the loop (any visiting orders) that both stopped hold the same map. *)
Theorem strip_confluent : forall M0 vs1 vs2,
  stable (fold_left visit vs1 M0) -> stable (fold_left visit vs2 M0) ->
  forall s, get (fold_left visit vs1 M0) s = get (fold_left visit vs2 M0) s.
Proof. intros M0 vs1 vs2 H1 H2. apply above_antisym; now apply stopped_below. Qed.

(* the loop makes progress: every visit that changes the map removes an entry, so it stops *)
Definition size (M : smap) : nat := fold_right (fun p n => S (length (snd p)) + n) 0 M.
