(* Replicator routing (net/p2p_replicator.go: SetReplicator, DeleteReplicator, loadAndPublishReplicators;
   net/server.go: updateReplicators, pushLogToReplicators). The persisted configuration maps a peer to the set of
   collections it replicates; the in-memory routing table maps a collection to the peers a new commit is pushed to.
   The table is maintained incrementally by the configuration calls and rebuilt from the persisted configuration when
   the node starts. The theorems say that both agree after every history - so a restart changes no routing decision -
   and that a commit of collection c goes to peer p exactly when p is configured for c. *)
From Coq Require Import List Arith Bool.
From Verif Require Import ListFacts.
Import ListNotations.

Definition peer := nat.
Definition coll := nat.
Definition stored := list (peer * list coll).          (* persisted: one record per peer, never with an empty set *)
Definition table := list (coll * peer).                (* in memory: the pairs (collection, peer) *)

Definition mem (x : nat) (l : list nat) : bool := existsb (Nat.eqb x) l.
Fixpoint lookup (p : peer) (s : stored) : list coll :=
  match s with [] => [] | (q, cs) :: r => if Nat.eqb q p then cs else lookup p r end.
Definition remove_peer (p : peer) (s : stored) : stored := filter (fun e => negb (Nat.eqb (fst e) p)) s.
Definition put (p : peer) (cs : list coll) (s : stored) : stored :=
  match cs with [] => remove_peer p s | _ => (p, cs) :: remove_peer p s end.

Definition union (a b : list coll) : list coll := a ++ filter (fun c => negb (mem c a)) b.
Definition minus (a b : list coll) : list coll := filter (fun c => negb (mem c b)) a.

(* server.updateReplicators: afterwards the peer is routed exactly the given collections *)
Definition update_table (t : table) (p : peer) (cs : list coll) : table :=
  filter (fun e => negb (Nat.eqb (snd e) p)) t ++ map (fun c => (c, p)) cs.

Inductive cop :=
| SetRep (p : peer) (cs : list coll)        (* add the collections cs (all = the caller lists them) to p *)
| DelRep (p : peer) (cs : list coll)        (* remove cs from p; [] = remove the replicator *)
| Restart.                                  (* the table is lost and rebuilt from the persisted records *)

Record node := mkN { cfg : stored; tab : table }.

Definition load (s : stored) : table := fold_left (fun t e => update_table t (fst e) (snd e)) s [].

Definition cstep (n : node) (o : cop) : node :=
  match o with
  | SetRep p cs => let ids := union (lookup p (cfg n)) cs in mkN (put p ids (cfg n)) (update_table (tab n) p ids)
  | DelRep p cs => let ids := match cs with [] => [] | _ => minus (lookup p (cfg n)) cs end in
                   mkN (put p ids (cfg n)) (update_table (tab n) p ids)
  | Restart => mkN (cfg n) (load (cfg n))
  end.
Definition crun (ops : list cop) : node := fold_left cstep ops (mkN [] []).

(* the routing decision of pushLogToReplicators *)
Definition routes (t : table) (c : coll) (p : peer) : bool := existsb (fun e => Nat.eqb (fst e) c && Nat.eqb (snd e) p) t.

Lemma mem_In x l : mem x l = true <-> In x l.
Proof. apply existsb_eqb_In. Qed.

Lemma routes_spec t c p : routes t c p = true <-> In (c, p) t.
Proof. apply existsb_eqb_pair_In. Qed.

Lemma update_table_spec t p cs c q :
  In (c, q) (update_table t p cs) <-> if p =? q then In c cs else In (c, q) t.
Proof.
  unfold update_table. rewrite in_app_iff, filter_In, in_map_iff, (Nat.eqb_sym p q). cbn [snd].
  destruct (Nat.eqb_spec q p) as [->|Hne]; cbn [negb].
  - split.
    + intros [[_ [=]]|(c' & [= ->] & H)]. exact H.
    + intros H. right. exists c. auto.
  - split.
    + intros [[H _]|(c' & [= _ E] & _)]; [exact H|congruence].
    + auto.
Qed.

Lemma lookup_remove p q s : lookup q (remove_peer p s) = if p =? q then [] else lookup q s.
Proof.
  induction s as [|[r cs] s IH]; cbn [remove_peer filter fst lookup]; [now destruct (p =? q)|].
  destruct (Nat.eqb_spec r p) as [->|Hne]; cbn [negb lookup]; fold (remove_peer p s); rewrite IH.
  - now destruct (p =? q).
  - destruct (Nat.eqb_spec r q) as [->|_]; [|reflexivity]. destruct (Nat.eqb_spec p q); [congruence|reflexivity].
Qed.
Lemma lookup_put p q cs s : lookup q (put p cs s) = if p =? q then cs else lookup q s.
Proof.
  unfold put. destruct cs as [|c cs]; [apply lookup_remove|]. cbn [lookup]. rewrite lookup_remove.
  now destruct (p =? q).
Qed.
Lemma lookup_absent p s : ~ In p (map fst s) -> lookup p s = [].
Proof.
  induction s as [|[q cs] s IH]; cbn [lookup map fst In]; [reflexivity|]. intros H.
  destruct (Nat.eqb_spec q p); [tauto|auto].
Qed.

Definition uniq (s : stored) : Prop := NoDup (map fst s).
Lemma remove_peer_notin p s : ~ In p (map fst (remove_peer p s)).
Proof. apply filter_neqb_fst_notIn. Qed.
Lemma remove_peer_uniq p s : uniq s -> uniq (remove_peer p s).
Proof. apply NoDup_map_filter. Qed.
Lemma put_uniq p cs s : uniq s -> uniq (put p cs s).
Proof.
  intros H. unfold put. destruct cs; [now apply remove_peer_uniq|].
  unfold uniq. cbn [map fst]. constructor; [apply remove_peer_notin | now apply remove_peer_uniq].
Qed.

(* Loading the records one after the other into a table t: a peer with a record is routed what its record says -
   there is one record per peer, so no later record overwrites it - and the other peers keep what t routed them. *)
Lemma load_from s : uniq s -> forall t c p,
  In (c, p) (fold_left (fun t e => update_table t (fst e) (snd e)) s t) <->
  if mem p (map fst s) then In c (lookup p s) else In (c, p) t.
Proof.
  unfold uniq. induction s as [|[q cs] s IH]; cbn [fold_left lookup map fst snd]; [reflexivity|].
  intros [Hn ND']%NoDup_cons_iff t c p. rewrite (IH ND').
  change (mem p (q :: map fst s)) with ((p =? q) || mem p (map fst s)). rewrite (Nat.eqb_sym p q).
  destruct (Nat.eqb_spec q p) as [->|Hne]; cbn [orb].
  - apply existsb_eqb_notIn in Hn. unfold mem. rewrite Hn, update_table_spec, Nat.eqb_refl. reflexivity.
  - destruct (mem p (map fst s)); [reflexivity|]. rewrite update_table_spec.
    destruct (Nat.eqb_spec q p); [contradiction|reflexivity].
Qed.

Lemma load_spec s : uniq s -> forall c p, In (c, p) (load s) <-> In c (lookup p s).
Proof.
  intros Hu c p. unfold load. rewrite (load_from s Hu). destruct (mem p (map fst s)) eqn:E; [reflexivity|].
  apply existsb_eqb_notIn in E. now rewrite (lookup_absent p s E).
Qed.

(* invariant of every history: the table in memory routes p exactly the collections persisted for p *)
Definition coherent (n : node) : Prop := uniq (cfg n) /\ forall c p, In (c, p) (tab n) <-> In c (lookup p (cfg n)).

Lemma put_update_coherent n p ids : coherent n -> coherent (mkN (put p ids (cfg n)) (update_table (tab n) p ids)).
Proof.
  intros [Hu Ht]. split; [now apply put_uniq|]. intros c q. cbn [cfg tab].
  rewrite update_table_spec, lookup_put. destruct (p =? q); [reflexivity|apply Ht].
Qed.

Lemma cstep_coherent n o : coherent n -> coherent (cstep n o).
Proof.
  intros H. destruct o as [p cs|p cs|]; [now apply put_update_coherent..|].
  destruct H as [Hu Ht]. split; [exact Hu|]. intros c q. now apply load_spec.
Qed.

Theorem routing_coherent ops : coherent (crun ops).
Proof. apply (fold_left_inv coherent cstep cstep_coherent). split; [constructor|reflexivity]. Qed.

Theorem restart_keeps_routing ops c p :
  routes (tab (cstep (crun ops) Restart)) c p = routes (tab (crun ops)) c p.
Proof.
  destruct (routing_coherent ops) as [Hu Ht]. apply eq_true_iff_eq. rewrite !routes_spec, Ht.
  exact (load_spec _ Hu c p).
Qed.

Theorem routed_iff_configured ops c p : routes (tab (crun ops)) c p = true <-> In c (lookup p (cfg (crun ops))).
Proof. destruct (routing_coherent ops) as [_ Ht]. now rewrite routes_spec, Ht. Qed.

(* rebuilding the table with one scratch set shared by all records (the collections of earlier records are still in it
   when a later record is loaded) routes later peers to collections of earlier ones *)
Definition load_shared (s : stored) : table :=
  snd (fold_left (fun acc e => let seen := fst acc ++ snd e in (seen, update_table (snd acc) (fst e) seen)) s ([], [])).
Example shared_scratch_refuted :
  let s := [(1, [10]); (2, [20])] in
  routes (load s) 10 2 = false /\ routes (load_shared s) 10 2 = true.
Proof. vm_compute. split; reflexivity. Qed.

Example routing_nonvacuous :
  let n := crun [SetRep 1 [10]; SetRep 2 [20]; SetRep 1 [30]; DelRep 2 []; SetRep 3 [10; 20]; DelRep 3 [20]; Restart] in
  routes (tab n) 10 1 = true /\ routes (tab n) 30 1 = true /\ routes (tab n) 20 2 = false /\
  routes (tab n) 10 3 = true /\ routes (tab n) 20 3 = false.
Proof. vm_compute. repeat split. Qed.
