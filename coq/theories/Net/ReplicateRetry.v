(* The retry round as it really runs (net/p2p_replicator.go: retryReplicators, setReplicatorAsRetrying,
   retryReplicator, handleCompletedReplicatorRetry): the loop marks the persisted retry record as "retrying" and starts
   the round in a goroutine; the round clears the mark when it ends. Replicate.v treats a round as one atomic event;
   here a round has a beginning and an end, and the source node may be closed in between. The persisted mark then
   outlives the goroutine. [reset] says whether the node clears the marks when it starts (the repaired behaviour). *)
From Coq Require Import List Bool.
From Verif Require Import ListFacts Replicate ReplicateProofs.
Import ListNotations.

Record rst := mkR { base : st; flag : bool (* persisted mark *); running : bool (* a round goroutine exists *) }.

Inductive rev :=
| RWrite (d : nat) | RDown | RUp
| RTickBegin                 (* the loop fires: if a record exists and is not marked, mark it and start a round *)
| RTickEnd                   (* the round in flight ends: pushes, clears the mark *)
| RRestart.                  (* A is closed and reopened: goroutines are gone *)

Definition rstep (reset : bool) (s : rst) (e : rev) : rst :=
  match e with
  | RWrite d => mkR (step (base s) (Write d)) (flag s) (running s)
  | RDown => mkR (step (base s) Down) (flag s) (running s)
  | RUp => mkR (step (base s) Up) (flag s) (running s)
  | RTickBegin => if retry_rec (base s) && negb (flag s) then mkR (base s) true true else s
  | RTickEnd => if running s then mkR (step (base s) Tick) false false else s
  | RRestart => mkR (base s) (if reset then false else flag s) false
  end.
Definition rrun (reset : bool) (s : rst) (es : list rev) : rst := fold_left (rstep reset) es s.
Definition rinit : rst := mkR init false false.

(* besides the invariant of the bookkeeping: when marks are cleared at start, a mark means a round in flight *)
Definition RInv (reset : bool) (s : rst) : Prop :=
  Inv (base s) /\ (reset = true -> flag s = true -> running s = true).

Lemma rstep_inv reset s e : RInv reset s -> RInv reset (rstep reset s e).
Proof.
  intros H. pose proof H as [Hi Hf]. destruct e; cbn [rstep].
  1-3: exact (conj (inv_step _ _ Hi) Hf).
  - destruct (_ && _); [|exact H]. split; [exact Hi|reflexivity].
  - destruct (running s); [|exact H]. split; [now apply inv_step|discriminate].
  - split; [exact Hi|]. intros ->. discriminate.
Qed.

Lemma rinv_reachable reset es : RInv reset (rrun reset rinit es).
Proof.
  apply (fold_left_inv (RInv reset) (rstep reset) (rstep_inv reset)). split; [apply inv_init|discriminate].
Qed.

Definition delivered (s : st) : Prop := (forall d, has s d = head s d) /\ retry s = [].

(* With the marks cleared at start, the next firing of the loop and the end of its round amount to one atomic retry
   round: either a round runs (started now, or in flight as the mark says), or there is no record and [Tick] does
   nothing. *)
Lemma round_is_tick s : RInv true s -> base (rstep true (rstep true s RTickBegin) RTickEnd) = step (base s) Tick.
Proof.
  intros [_ H2]. cbn [rstep]. destruct (retry_rec (base s) && negb (flag s)) eqn:E; [reflexivity|].
  destruct (running s) eqn:Er; [reflexivity|]. destruct (flag s); [discriminate (H2 eq_refl eq_refl)|].
  rewrite andb_true_r in E. cbn [step]. now rewrite E.
Qed.

(* With the marks cleared at start: after ANY history - rounds interrupted by restarts included - once B is reachable
   the next firing of the loop and the end of its round leave B with every commit of A. *)
Theorem eventually_delivered_interruptible es :
  delivered (base (rrun true rinit (es ++ [RUp; RTickBegin; RTickEnd]))).
Proof.
  unfold rrun. rewrite fold_left_app. cbn [fold_left].
  assert (Hu : RInv true (rstep true (fold_left (rstep true) es rinit) RUp)) by apply rstep_inv, rinv_reachable.
  rewrite (round_is_tick _ Hu). apply tick_delivers; [apply Hu|reflexivity].
Qed.

(* Without clearing the marks (the pinned behaviour): a restart during a round leaves the mark set with no goroutine
   to clear it; the loop never starts a round for that peer again, however often it fires. *)
Definition stuck_history : list rev := [RDown; RWrite 0; RTickBegin; RRestart; RUp].
Lemma persisted_mark_refuted : forall n,
  let s := rrun false rinit (stuck_history ++ concat (repeat [RTickBegin; RTickEnd] n)) in
  up (base s) = true /\ has (base s) 0 <> head (base s) 0.
Proof.
  intros n. cbv zeta. unfold rrun. rewrite fold_left_app.
  set (s0 := fold_left (rstep false) stuck_history rinit).
  assert (F : forall k, fold_left (rstep false) (concat (repeat [RTickBegin; RTickEnd] k)) s0 = s0).
  { (* in s0 the mark is set and no round is running: the loop starts none, and there is none to end *)
    induction k as [|k IH]; [reflexivity|]. cbn [repeat concat app fold_left]. exact IH. }
  rewrite F. vm_compute. split; [reflexivity|discriminate].
Qed.

Example interruptible_nonvacuous :
  let s := rrun true rinit [RDown; RWrite 0; RWrite 1; RTickBegin; RRestart; RUp; RTickBegin; RTickEnd] in
  has (base s) 0 = 1 /\ has (base s) 1 = 1 /\ retry (base s) = [] /\ flag s = false.
Proof. vm_compute. auto. Qed.

(* A failed push whose bookkeeping is abandoned (the pinned handler gave up when its transaction conflicted with the
   mark written by the retry loop): the document is neither delivered nor recorded, the invariant is lost and no
   later retry round can deliver it. The repaired handler records the failure again, which is the Write step. *)
Definition write_unrecorded (s : st) (d : nat) : st :=
  {| head := upd (head s) d (S (head s d)); has := has s; up := up s; active := active s;
     retry_rec := retry_rec s; retry := retry s |}.
Example unrecorded_failure_refuted :
  let s := write_unrecorded (run init [Down; Write 0]) 1 in
  ~ Inv s /\ has (step (step s Up) Tick) 1 <> head (step (step s Up) Tick) 1.
Proof.
  cbv zeta. split.
  - intros [H _]. destruct (H 1) as [E|[E _]]; vm_compute in E; discriminate.
  - vm_compute. discriminate.
Qed.
