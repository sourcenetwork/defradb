From Coq Require Import List Arith Bool.
From Verif Require Import ListFacts Replicate.
Import ListNotations.

Lemma upd_same f d v : upd f d v d = v.
Proof. unfold upd. now rewrite Nat.eqb_refl. Qed.
Lemma upd_other f d v x : x <> d -> upd f d v x = f x.
Proof. intros H. unfold upd. now destruct (Nat.eqb_spec x d). Qed.

Lemma memb_add x d l : memb x (add d l) = (x =? d) || memb x l.
Proof.
  unfold add. destruct (memb d l) eqn:E.
  - destruct (Nat.eqb_spec x d) as [->|_]; [now rewrite E|reflexivity].
  - unfold memb. rewrite existsb_app. cbn [existsb]. now rewrite orb_false_r, orb_comm.
Qed.
Lemma add_nonempty d l : add d l <> [].
Proof. unfold add. destruct (memb d l) eqn:E, l; discriminate. Qed.

Lemma retry_round_up h hs l :
  exists hs', retry_round h true hs l = (hs', []) /\ forall d, hs' d = if memb d l then h d else hs d.
Proof.
  revert hs. induction l as [|x l IH]; intros hs; cbn [retry_round]; [now exists hs|].
  destruct (IH (upd hs x (h x))) as (hs' & -> & R). exists hs'. split; [reflexivity|]. intros d. rewrite R.
  change (memb d (x :: l)) with ((d =? x) || memb d l). unfold upd.
  destruct (Nat.eqb_spec d x) as [->|_]; [destruct (memb x l)|]; reflexivity.
Qed.

Lemma retry_round_down h hs l : retry_round h false hs l = (hs, l).
Proof. destruct l; reflexivity. Qed.

(* under the invariant what B lacks is recorded, and there is a record: a round with B reachable pushes it all *)
Lemma tick_delivers s : Inv s -> up s = true ->
  (forall d, has (step s Tick) d = head (step s Tick) d) /\ retry (step s Tick) = [].
Proof.
  intros (H1 & H2 & _) Eup. cbn [step]. destruct (retry_rec s) eqn:Er.
  - rewrite Eup. destruct (retry_round_up (head s) (has s) (retry s)) as (hs & -> & R).
    split; [|reflexivity]. intros d. cbn [has head]. rewrite R. destruct (memb d (retry s)) eqn:Em; [reflexivity|].
    destruct (H1 d) as [E|[E _]]; congruence.
  - split; [|now apply H2]. intros d. destruct (H1 d) as [E|[_ E]]; congruence.
Qed.

Theorem inv_step : forall s e, Inv s -> Inv (step s e).
Proof.
  intros s e H. destruct e as [d| | | |].
  2-4: exact H.   (* Down, Up, ARestart leave every field the invariant reads *)
  - destruct H as (H1 & H2 & H3). cbn [step]. destruct (up s).
    + split; [|split; assumption]. intros x. cbn [has head]. destruct (Nat.eq_dec x d) as [->|N].
      * left. now rewrite !upd_same.
      * rewrite !upd_other by exact N. apply H1.
    + split; [|split; discriminate]. intros x. cbn [has head retry retry_rec]. unfold upd. rewrite memb_add.
      destruct (x =? d); [right; split; reflexivity|]. destruct (H1 x) as [E|[E _]]; [left|right]; auto.
  - destruct (up s) eqn:Eu.
    + destruct (tick_delivers s H Eu) as [D1 D2]. split; [auto|split; intros _; exact D2].
    + (* B unreachable: the round stops at its first document; an empty round still closes the record *)
      cbn [step]. destruct (retry_rec s) eqn:Er; [|exact H]. rewrite Eu, retry_round_down.
      destruct H as (H1 & H2 & H3). rewrite Er in H1. destruct (retry s) as [|x r].
      * split; [|split; reflexivity]. intros y. left. destruct (H1 y) as [E|[E _]]; [exact E|discriminate E].
      * split; [exact H1|split; [discriminate|exact H3]].
Qed.

Lemma inv_init : Inv init.
Proof. repeat split; auto. Qed.

Theorem inv_reachable : forall es, Inv (run init es).
Proof. intros es. exact (fold_left_inv Inv step inv_step es init inv_init). Qed.

(* a failed push sets both, a completed round clears both *)
Lemma inactive_recorded es : active (run init es) = false -> retry_rec (run init es) = true.
Proof.
  apply (fold_left_inv (fun s => active s = false -> retry_rec s = true)); [|discriminate].
  intros s e H. destruct e as [d| | | |]; cbn [step]; try exact H.
  - destruct (up s); [exact H|reflexivity].
  - destruct (retry_rec s) eqn:E; [|now rewrite E].
    destruct (retry_round _ _ _ _) as [hs [|x r]]; [discriminate|reflexivity].
Qed.

Lemma tick_reactivates s : (active s = false -> retry_rec s = true) -> up s = true ->
  retry_rec (step s Tick) = false /\ active (step s Tick) = true.
Proof.
  intros A U. cbn [step]. destruct (retry_rec s) eqn:E.
  - rewrite U. destruct (retry_round_up (head s) (has s) (retry s)) as (hs & -> & _). split; reflexivity.
  - split; [exact E|]. destruct (active s); [reflexivity|discriminate (A eq_refl)].
Qed.

(* Eventual delivery: after ANY history of writes, outages, restarts and retry rounds, once B is reachable one more
   retry round leaves B with every commit of A, an empty retry set and an active replicator. *)
Theorem eventually_delivered : forall es,
  let s := step (step (run init es) Up) Tick in
  (forall d, has s d = head s d) /\ retry s = [] /\ retry_rec s = false /\ active s = true \/
  (* (no retry record: everything had been delivered already) *)
  ((forall d, has s d = head s d) /\ retry s = []).
Proof.
  intros es s. left.
  destruct (tick_delivers (step (run init es) Up)) as [D R]; [apply inv_step, inv_reachable|reflexivity|].
  destruct (tick_reactivates (step (run init es) Up) (inactive_recorded es) eq_refl) as [Q T]. auto.
Qed.

(* the pinned retry path pushed with another collection identifier than a first push (the schema version id instead
   of the collection id): when the receiver cannot resolve it the merge fails after the push was acknowledged, and the
   document leaves the retry set undelivered - the shape of the repaired defect F12 *)
Definition retry_round_acked_but_dropped (l : list nat) (hs : nat -> nat) : (nat -> nat) * list nat := (hs, []).
Lemma legacy_retry_refuted :
  let s := run init [Down; Write 0; Up] in
  let '(hs, rest) := retry_round_acked_but_dropped (retry s) (has s) in
  rest = [] /\ hs 0 <> head s 0.
Proof. vm_compute. split; [reflexivity|discriminate]. Qed.
