(* Database level of C20: a history is a sequence of API calls (Kv/Txn.v: implicit transaction, commit on the success
   path, callbacks after a successful commit); each call publishes its events on the bus when it completes.  What a
   subscriber present from the start receives is therefore the concatenation, in completion order, of the events of
   the committed calls, and nothing for the failed ones. *)
From Coq Require Import List ZArith.
From Verif Require Import Txn EventBus EventBusProofs.
Import ListNotations.

Definition acall := (prog * nat * sched)%type.

Fixpoint exec (cs : list acall) (s : store) : store * list (bool * list Z) :=
  match cs with
  | [] => (s, [])
  | (p, fuel, sc) :: r =>
      let '(ok, s', evs) := call p fuel sc s in
      let '(sf, log) := exec r s' in (sf, (ok, evs) :: log)
  end.

Definition announced (log : list (bool * list Z)) : list Z := concat (map snd log).
Definition committed_events (log : list (bool * list Z)) : list Z :=
  concat (map snd (filter fst log)).

Theorem only_committed_announced : forall cs s,
  announced (snd (exec cs s)) = committed_events (snd (exec cs s)).
Proof.
  unfold announced, committed_events.
  induction cs as [|[[p fuel] sc] cs IH]; intros s; cbn [exec]; [reflexivity|].
  pose proof (events_iff_commit p fuel sc s) as H. destruct (call p fuel sc s) as [[ok s'] evs].
  specialize (IH s'). destruct (exec cs s') as [sf log]. cbn [snd map filter fst] in *.
  destruct ok; cbn [map concat snd]; [now rewrite IH|]. now destruct (H eq_refl) as [-> _].
Qed.

(* the bus carries them to a subscriber of the update name (1) unchanged and in order *)
Definition pubs (evs : list Z) : list cmd := map (fun e => CPub 1 (Z.to_nat e)) evs.

Lemma due_pubs i names evs : wants names 1 = true ->
  due i names (pubs evs) = map (fun e => (1, Z.to_nat e)) evs.
Proof. intros W. induction evs as [|e evs IH]; cbn [pubs map due]; [auto|]. rewrite W. f_equal. apply IH. Qed.

Theorem subscriber_sees_committed_in_order : forall cs s i names, wants names 1 = true ->
  received i (EventBus.run (CSub i names :: pubs (announced (snd (exec cs s))))) =
  map (fun e => (1, Z.to_nat e)) (committed_events (snd (exec cs s))).
Proof.
  intros cs s i names W. rewrite bus_delivery. cbn [due_from]. rewrite Nat.eqb_refl.
  rewrite due_pubs by auto. now rewrite only_committed_announced.
Qed.
