(* The bus state is the pointwise tracking of each subscriber ([step_find]), so one subscriber can be followed alone
   through the commands ([track_due]); what it holds in the end is what the specification [due_from] owes it ([run_due]). *)
From Coq Require Import List Arith Bool.
From Verif Require Import EventBus.
Import ListNotations.

Lemma track_id c s : s_id (track c s) = s_id s.
Proof. destruct c as [j ns|j|n p]; cbn [track]; [|destruct (Nat.eqb _ _)|destruct (_ && _)]; reflexivity. Qed.
Lemma track_names c s : s_names (track c s) = s_names s.
Proof. destruct c as [j ns|j|n p]; cbn [track]; [|destruct (Nat.eqb _ _)|destruct (_ && _)]; reflexivity. Qed.

(* one subscriber followed through any command sequence receives exactly what it is due while it is open, and
   nothing once it is closed *)
Lemma track_due cs : forall s,
  s_recv (fold_left (fun s c => track c s) cs s) =
  s_recv s ++ if s_open s then due (s_id s) (s_names s) cs else [].
Proof.
  induction cs as [|c cs IH]; intros s; cbn [fold_left due]; [destruct (s_open s); now rewrite app_nil_r|].
  rewrite IH, track_id, track_names. destruct c as [j ns|j|n p]; cbn [track]; [reflexivity| |].
  - destruct (Nat.eqb j (s_id s)); [cbn [s_recv s_open]; now destruct (s_open s) | reflexivity].
  - destruct (s_open s) eqn:Ho; cbn [andb]; [|now rewrite Ho].
    destruct (wants (s_names s) n); cbn [s_recv s_open]; [now rewrite <- app_assoc | now rewrite Ho].
Qed.

Lemma find_map {A} (p : A -> bool) (g : A -> A) l : (forall x, p (g x) = p x) ->
  find p (map g l) = option_map g (find p l).
Proof. intros H. induction l as [|a l IH]; cbn [map find option_map]; [auto|]. rewrite H. destruct (p a); auto. Qed.

Lemma find_app {A} (p : A -> bool) l l' :
  find p (l ++ l') = match find p l with Some x => Some x | None => find p l' end.
Proof. induction l as [|a l IH]; cbn [app find]; [auto|]. destruct (p a); auto. Qed.

Lemma find_has i st : has_id i st = match find (fun s => Nat.eqb i (s_id s)) st with Some _ => true | None => false end.
Proof. unfold has_id. induction st as [|s st IH]; cbn [existsb find]; [auto|]. destruct (Nat.eqb i (s_id s)); auto. Qed.

Lemma step_find c st i :
  find (fun s => Nat.eqb i (s_id s)) (step st c) =
  match find (fun s => Nat.eqb i (s_id s)) st with
  | Some s => Some (track c s)
  | None => match c with
            | CSub j ns => if Nat.eqb i j then Some {| s_id := j; s_names := ns; s_recv := []; s_open := true |} else None
            | _ => None
            end
  end.
Proof.
  pose proof (find_map (fun s => Nat.eqb i (s_id s)) (track c) st (fun s => f_equal (Nat.eqb i) (track_id c s))) as Hm.
  unfold step. destruct c as [j ns|j|n p]; [|exact Hm ..].
  destruct (has_id j st) eqn:Hj.
  - rewrite Hm. destruct (find _ st) eqn:Hi; [reflexivity|]. cbn [option_map].
    (* j is known, i is not *)
    destruct (Nat.eqb_spec i j) as [->|]; [|reflexivity]. rewrite find_has, Hi in Hj. discriminate.
  - rewrite find_app, Hm. destruct (find _ st); reflexivity.
Qed.

Lemma run_from cs : forall st i s, find (fun s => Nat.eqb i (s_id s)) st = Some s ->
  find (fun s => Nat.eqb i (s_id s)) (fold_left step cs st) = Some (fold_left (fun s c => track c s) cs s).
Proof.
  induction cs as [|c cs IH]; intros st i s H; cbn [fold_left]; [auto|].
  apply IH. now rewrite step_find, H.
Qed.

Lemma find_id {i st s} : find (fun s => Nat.eqb i (s_id s)) st = Some s -> s_id s = i.
Proof. intros H. apply find_some in H. destruct H as [_ H]. apply Nat.eqb_eq in H. auto. Qed.

Lemma run_due cs : forall st i, find (fun s => Nat.eqb i (s_id s)) st = None ->
  received i (fold_left step cs st) = due_from i cs.
Proof.
  induction cs as [|c cs IH]; intros st i Hn; cbn [fold_left due_from]; [unfold received; now rewrite Hn|].
  pose proof (step_find c st i) as Hs. rewrite Hn in Hs.
  destruct c as [j ns|j|n p]; [|now apply IH ..].
  rewrite (Nat.eqb_sym j i). destruct (Nat.eqb_spec i j) as [->|]; [|now apply IH].
  unfold received. now rewrite (run_from cs _ _ _ Hs), track_due.
Qed.

Theorem bus_delivery : forall cs i, received i (run cs) = due_from i cs.
Proof. intros. unfold run. apply run_due. auto. Qed.

(* consequences spelt out: due is a subsequence (order kept, nothing duplicated) of the published messages *)
Fixpoint published (cs : list cmd) : list msg :=
  match cs with [] => [] | CPub n p :: r => (n, p) :: published r | _ :: r => published r end.

Inductive subseq {A} : list A -> list A -> Prop :=
| ss_nil : subseq [] []
| ss_skip x l m : subseq l m -> subseq l (x :: m)
| ss_take x l m : subseq l m -> subseq (x :: l) (x :: m).

Lemma subseq_nil {A} (m : list A) : subseq [] m.
Proof. induction m; constructor; auto. Qed.

Lemma due_subseq i names cs : subseq (due i names cs) (published cs).
Proof.
  induction cs as [|c cs IH]; cbn [due published]; [constructor|].
  destruct c as [j ns|j|n p]; auto.
  - destruct (Nat.eqb j i); auto. apply subseq_nil.
  - destruct (wants names n); [apply ss_take|apply ss_skip]; auto.
Qed.

Lemma due_from_subseq i cs : subseq (due_from i cs) (published cs).
Proof.
  induction cs as [|c cs IH]; cbn [due_from published]; [constructor|].
  destruct c as [j ns|j|n p]; auto.
  - destruct (Nat.eqb j i); auto. apply due_subseq.
  - apply ss_skip; auto.
Qed.

Theorem delivery_in_publish_order : forall cs i, subseq (received i (run cs)) (published cs).
Proof. intros. rewrite bus_delivery. apply due_from_subseq. Qed.

(* nothing of another name, nothing lost while subscribed: between subscribe and unsubscribe (no Unsub i in cs) *)
Fixpoint no_unsub (i : nat) (cs : list cmd) : bool :=
  match cs with [] => true | CUnsub j :: r => negb (Nat.eqb j i) && no_unsub i r | _ :: r => no_unsub i r end.

Lemma due_complete i names cs : no_unsub i cs = true ->
  due i names cs = filter (fun m => wants names (fst m)) (published cs).
Proof.
  induction cs as [|c cs IH]; cbn [due published no_unsub filter]; [auto|].
  destruct c as [j ns|j|n p]; auto.
  - intros H. apply andb_prop in H. destruct H as [H1 H2]. destruct (Nat.eqb j i); [discriminate|auto].
  - intros H. cbn [filter fst]. destruct (wants names n); [f_equal|]; auto.
Qed.

Theorem exactly_the_subscribed_names : forall pre i names cs,
  has_id i (run pre) = false -> no_unsub i cs = true ->
  received i (run (pre ++ CSub i names :: cs)) = filter (fun m => wants names (fst m)) (published cs).
Proof.
  intros pre i names cs Hn Hu. unfold run. rewrite fold_left_app. fold (run pre).
  rewrite run_due by (rewrite find_has in Hn; now destruct (find _ (run pre))).
  cbn [due_from]. rewrite Nat.eqb_refl. now apply due_complete.
Qed.
