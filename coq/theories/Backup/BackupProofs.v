From Coq Require Import List.
From Verif Require Import Backup.
Import ListNotations.

(* the two parts of [newid]'s body ([newid_unfold]): the foreign keys with the new ids [g] gives their targets, [None]
   where [g] has none, and the test that none is missing *)
Definition fkmap (g : nat -> option idt) (l : list (option nat)) : list (option (option idt)) :=
  map (fun o => match o with None => Some None
                | Some j => match g j with Some t => Some (Some t) | None => None end end) l.
Definition alldef (l : list (option (option idt))) : bool :=
  forallb (fun o => match o with Some _ => true | None => false end) l.

Lemma newid_unfold f d i : newid (S f) d i =
  match nth_error d i with
  | None => None
  | Some x => if alldef (fkmap (newid f d) (d_fks x))
              then Some (Hid (d_col x) (d_vals x) (map (fun o => match o with Some v => v | None => None end) (fkmap (newid f d) (d_fks x))))
              else None
  end.
Proof. reflexivity. Qed.

Lemma alldef_fkmap g l : alldef (fkmap g l) = true -> forall j, In (Some j) l -> exists t, g j = Some t.
Proof.
  intros H j Hj. unfold alldef in H. rewrite forallb_forall in H.
  specialize (H _ (in_map _ _ _ Hj)). cbn beta iota in H. destruct (g j) as [t|]; [eauto | discriminate].
Qed.

Lemma fkmap_ext g h l : (forall j, g j = h j) -> fkmap g l = fkmap h l.
Proof. intros H. apply map_ext. intros [j|]; [rewrite H|]; reflexivity. Qed.

Lemma fkmap_mono (g h : nat -> option idt) l : (forall j t, g j = Some t -> h j = Some t) ->
  alldef (fkmap g l) = true -> fkmap h l = fkmap g l.
Proof.
  intros Hgh H. apply map_ext_in. intros [j|] Hj; [|reflexivity].
  destruct (alldef_fkmap g l H j Hj) as [t Ht]. now rewrite (Hgh j t Ht), Ht.
Qed.

(* more fuel does not change a defined result: the new id is a function of the reference structure *)
Lemma newid_mono f : forall d i t, newid f d i = Some t -> newid (S f) d i = Some t.
Proof.
  induction f as [|f IH]; intros d i t H; [discriminate|].
  rewrite newid_unfold in *. destruct (nth_error d i) as [x|]; [|discriminate].
  destruct (alldef (fkmap (newid f d) (d_fks x))) eqn:E; [|discriminate].
  now rewrite (fkmap_mono _ _ _ (IH d) E), E.
Qed.

(* round trip: the document created by import from an exported entry carries exactly the id the file announced, its
   current values, and foreign keys equal to the announced new ids of the referenced documents *)
Theorem import_matches_announced : forall fuel d i e,
  export_doc fuel d i = Some e ->
  let '(id, c, v, fks) := import_entry e in
  id = e_new e /\ newid fuel d i = Some id /\
  (exists x, nth_error d i = Some x /\ c = d_col x /\ v = d_vals x /\ length fks = length (d_fks x)).
Proof.
  intros fuel d i e H. unfold export_doc in H.
  destruct (nth_error d i) as [x|] eqn:Ex; [|discriminate].
  destruct (newid fuel d i) as [[c v fks]|] eqn:En; [|discriminate]. injection H as <-.
  cbn [import_entry e_col e_vals e_fks e_new]. repeat split. exists x. split; auto.
  destruct fuel as [|f]; [discriminate|]. rewrite newid_unfold, Ex in En.
  destruct (alldef _); [|discriminate]. injection En as <- <- <-. unfold fkmap. now rewrite !map_length.
Qed.

(* relations: the k-th foreign key written for document i is the announced new id of the document it referenced *)
Theorem relations_follow_mapping : forall f d i x c v fks k j,
  nth_error d i = Some x -> newid (S f) d i = Some (Hid c v fks) ->
  nth_error (d_fks x) k = Some (Some j) ->
  exists t, nth_error fks k = Some (Some t) /\ newid f d j = Some t.
Proof.
  intros f d i x c v fks k j Hx Hn Hk. rewrite newid_unfold, Hx in Hn.
  destruct (alldef _) eqn:Ef; [|discriminate]. injection Hn as <- <- <-.
  destruct (alldef_fkmap _ _ Ef j) as [t Ht]; [eapply nth_error_In; exact Hk|].
  exists t. split; [|exact Ht]. unfold fkmap. rewrite !nth_error_map, Hk. cbn [option_map]. now rewrite Ht.
Qed.

(* the new id depends on collections, current values and reference structure only - not on the current ids *)
Definition same_content (d d' : db) : Prop :=
  forall i, match nth_error d i, nth_error d' i with
            | Some x, Some y => d_col x = d_col y /\ d_vals x = d_vals y /\ d_fks x = d_fks y
            | None, None => True
            | _, _ => False
            end.

Lemma newid_content d d' : same_content d d' -> forall f i, newid f d i = newid f d' i.
Proof.
  intros Hs. induction f as [|f IH]; intros i; [reflexivity|].
  rewrite !newid_unfold. specialize (Hs i).
  destruct (nth_error d i) as [x|], (nth_error d' i) as [y|]; try contradiction; auto.
  destruct Hs as [-> [-> ->]]. now rewrite (fkmap_ext _ _ (d_fks y) IH).
Qed.

(* documents whose id is the hash of their current content keep it: exporting the imported database announces, for
   every document, the id it already has, so a second export / import reproduces the same identifiers *)
Definition consistent (fuel : nat) (d : db) : Prop :=
  forall i x, nth_error d i = Some x -> newid fuel d i = Some (d_id x).

Theorem reexport_stable : forall fuel d d',
  same_content d d' ->
  (forall i y, nth_error d' i = Some y -> newid fuel d i = Some (d_id y)) ->   (* d' is what import created from d *)
  consistent fuel d'.
Proof.
  intros fuel d d' Hs Hi i y Hy. rewrite <- (newid_content d d' Hs fuel i). now apply Hi.
Qed.
